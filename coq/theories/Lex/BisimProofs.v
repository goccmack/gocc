(** Soundness of the bisimulation checker of Bisim.v:
    if [bisim_check rows acts g fuel = true] then the Scan loop on the emitted tables and the
    definitional tokenizer of the grammar return the same tokens (type, literal, positions, skipped
    text) and reach the same lexer positions, for every byte sequence and any number of calls
    (Property C01, part (C)).
    At the end: what [ScanSpec] says on the derivative automaton of a dot-free grammar, in terms of
    [matches]. *)
From Coq Require Import List ZArith Lia Bool.
From Gocc Require Import Base.Utf8 Lex.Scan Lex.ScanProofs Lex.Pattern Lex.Deriv Lex.GScanProofs Lex.LexLang Lex.DerivProofs Lex.Bisim.
Import ListNotations.
Open Scope Z_scope.

Section GBisim.
Variables St1 St2 : Type.
Variable decode : list Z -> Z * nat.
Variable M1 : machine St1.
Variable M2 : machine St2.
Variable okr : Z -> Prop.              (* the characters the decoder can return *)
Variable okb : Z -> Prop.              (* the bytes of the input *)
Hypothesis decode_ok : forall bs, Forall okb bs -> bs <> [] -> okr (fst (decode bs)).

Variable R : St1 -> St2 -> Prop.
Hypothesis R_step : forall s1 s2, R s1 s2 -> forall r, okr r ->
  match m_step M1 s1 r, m_step M2 s2 r with
  | None, None => True
  | Some a, Some b => m_acc M1 a = m_acc M2 b /\ R a b
  | _, _ => False
  end.
Hypothesis R_start : R (m_start M1) (m_start M2).

Lemma gloop_bisim : forall fuel s1 s2 cur start acc ttype skip,
  R s1 s2 -> Forall okb (rest cur) ->
  gloop decode M1 fuel s1 cur start acc ttype skip = gloop decode M2 fuel s2 cur start acc ttype skip.
Proof.
  induction fuel as [|fuel IH]; intros s1 s2 cur start acc ttype skip HR Hok; [reflexivity|].
  destruct (nil_dec (rest cur)) as [He|Hne]; [rewrite !(gloop_end _ _ _ _ _ _ _ _ _ _ He); reflexivity|].
  pose proof (decode_ok _ Hok Hne) as Hr.
  destruct (decode (rest cur)) as [r sz] eqn:Hd. rewrite !(gloop_step _ _ _ _ _ _ _ _ _ _ _ _ Hne Hd). simpl in Hr.
  pose proof (R_step _ _ HR r Hr) as Hstep.
  assert (Hok' : Forall okb (rest (consume r sz cur))).
  { rewrite <- (consume_split cur r sz) in Hok. apply Forall_app in Hok. apply Hok. }
  destruct (m_step M1 s1 r) as [a|], (m_step M2 s2 r) as [b'|]; try contradiction; [|reflexivity].
  destruct Hstep as [Hacc HR']. rewrite Hacc.
  destruct (negb (m_acc M2 b' =? -1)); apply IH; auto.
Qed.

Theorem gscan_bisim l : Forall okb (rest l) -> gscan decode M1 l = gscan decode M2 l.
Proof.
  intros Hok. unfold gscan. destruct (rest l) eqn:E; [reflexivity|]. rewrite <- E in *.
  apply gloop_bisim; auto.
Qed.

(** what is left after a call is a part of what was there, so it still consists of bytes *)
Theorem gscan_n_bisim : forall k l, Forall okb (rest l) -> gscan_n decode M1 k l = gscan_n decode M2 k l.
Proof.
  induction k as [|k IH]; intros l Hok; [reflexivity|]. cbn [gscan_n].
  rewrite <- (gscan_bisim l Hok). destruct (gscan decode M1 l) as [[t l']|] eqn:E; [|reflexivity].
  rewrite IH; [reflexivity|]. rewrite (gscan_tiles _ _ _ _ _ _ E), !Forall_app in Hok. apply Hok.
Qed.
End GBisim.

Definition byte (b : Z) : Prop := 0 <= b <= 255.

Lemma decode_rune_range bs : Forall byte bs -> bs <> [] -> 0 <= fst (decode_rune bs) <= MAXRUNE.
Proof. intros Hb _. apply decode_rune_bounds. apply Forall_forall. exact Hb. Qed.

(** Cells: a representative behaves like every rune of its cell. *)
Definition same_on (rgs : list (Z * Z)) (b c : Z) : Prop :=
  forall lo hi, In (lo, hi) rgs -> in_rng lo hi c = in_rng lo hi b.

Lemma same_on_app rgs1 rgs2 b c : same_on (rgs1 ++ rgs2) b c <-> same_on rgs1 b c /\ same_on rgs2 b c.
Proof.
  unfold same_on. split.
  - intros H. split; intros lo hi Hin; apply H; apply in_or_app; auto.
  - intros [H1 H2] lo hi Hin. apply in_app_or in Hin. destruct Hin; auto.
Qed.

Lemma same_on_incl rgs1 rgs2 b c : incl rgs1 rgs2 -> same_on rgs2 b c -> same_on rgs1 b c.
Proof. intros Hi H lo hi Hin. apply H, Hi, Hin. Qed.

(** the largest element of [l] below [c], or the seed [d] if it is larger *)
Lemma max_le (l : list Z) (c : Z) : forall d, d <= c ->
  exists b, (b = d \/ In b l) /\ b <= c /\ d <= b /\ forall x, In x l -> x <= c -> x <= b.
Proof.
  induction l as [|y l IH]; intros d Hd.
  - exists d. repeat split; auto; try lia. intros x [].
  - (* go on with the larger of [d] and [y], if [y] is below [c] *)
    assert (Hd' : exists d', (d' = d \/ d' = y) /\ d <= d' <= c /\ (y <= c -> y <= d')).
    { destruct (Z_le_gt_dec y c); [destruct (Z_le_gt_dec y d)|]; [exists d|exists y|exists d]; (split; [auto|lia]). }
    destruct Hd' as (d' & Hd' & Hdd & Hy). destruct (IH d' (proj2 Hdd)) as (b & Hb & Hbc & Hdb & Hmax).
    exists b. split; [destruct Hb as [->|Hb]; [destruct Hd' as [->| ->]|]; simpl; auto|].
    repeat split; try lia. intros x [<-|Hx] Hxc; [lia|auto].
Qed.

Lemma dedup_In x : forall l, In x l -> In x (dedup l).
Proof.
  induction l as [|y l IH]; intros Hin; [destruct Hin|]. simpl.
  destruct (existsb (Z.eqb y) l) eqn:E.
  - destruct Hin as [->|Hin]; [|auto]. apply IH. apply existsb_exists in E.
    destruct E as (z & Hz & Hyz). apply Z.eqb_eq in Hyz. subst. exact Hz.
  - destruct Hin as [->|Hin]; [left; reflexivity|right; auto].
Qed.

(** every rune of [0, 0x10FFFF] has a representative with the same membership in all ranges *)
Lemma rep_exists cs S c : 0 <= c <= MAXRUNE ->
  exists b, In b (reps cs S) /\ same_on (ranges cs S) b c.
Proof.
  intros Hc. set (pts := filter in_unicode (bounds cs S)).
  destruct (max_le pts c 0 ltac:(lia)) as (b & Hb & Hbc & H0b & Hmax).
  assert (Hin0 : In 0 pts). { apply filter_In. split; [left; reflexivity|reflexivity]. }
  assert (Hbin : In b pts) by (destruct Hb; [subst; exact Hin0|assumption]).
  exists b. split; [apply dedup_In; exact Hbin|].
  intros lo hi Hin.
  assert (Hlo : In lo (bounds cs S)).
  { right. apply in_flat_map. exists (lo, hi). split; [exact Hin|left; reflexivity]. }
  assert (Hhi : In (hi + 1) (bounds cs S)).
  { right. apply in_flat_map. exists (lo, hi). split; [exact Hin|right; left; reflexivity]. }
  assert (Hpt : forall x, In x (bounds cs S) -> 0 <= x <= c -> x <= b).
  { intros x Hx Hxc. apply Hmax; [|lia]. apply filter_In. split; [exact Hx|].
    unfold in_unicode, MAXRUNE in *. apply andb_true_intro. split; apply Z.leb_le; lia. }
  assert (H1 : lo <= c <-> lo <= b).
  { split; intros H; [|lia]. destruct (Z_lt_le_dec lo 0); [lia|]. apply Hpt; [exact Hlo|lia]. }
  assert (H2 : c <= hi <-> b <= hi).
  { split; intros H; [lia|]. destruct (Z_lt_le_dec hi c); [|lia].
    assert (hi + 1 <= b) by (apply Hpt; [exact Hhi|lia]). lia. }
  apply eq_iff_eq_true. rewrite !in_rng_iff, H1, H2. reflexivity.
Qed.

(** both step functions depend on the rune only through its membership in the ranges they test *)
Lemma lookup_same cs dflt b c : same_on (map fst cs) b c -> lookup cs c dflt = lookup cs b dflt.
Proof.
  induction cs as [|[[lo hi] n] cs IH]; intros H; [reflexivity|]. simpl.
  change ((lo <=? c) && (c <=? hi)) with (in_rng lo hi c).
  change ((lo <=? b) && (b <=? hi)) with (in_rng lo hi b).
  rewrite (H lo hi (or_introl eq_refl)). destruct (in_rng lo hi b); [reflexivity|].
  apply IH. intros lo' hi' Hin. apply H. right. exact Hin.
Qed.

Lemma expl_same r b c : same_on (firstsyms r) b c -> expl r c = expl r b.
Proof. intros H. rewrite !expl_existsb. apply existsb_ext_in. intros [lo hi] Hin. exact (H lo hi Hin). Qed.

Lemma deriv_same dot r : forall b c, same_on (firstsyms r) b c -> deriv dot r c = deriv dot r b.
Proof.
  induction r; intros b c H; simpl in *; auto.
  - rewrite (H lo hi (or_introl eq_refl)). reflexivity.
  - apply same_on_app in H. destruct H. rewrite (IHr1 b c), (IHr2 b c); auto.
  - destruct (nullable r1).
    + apply same_on_app in H. destruct H. rewrite (IHr1 b c), (IHr2 b c); auto.
    + rewrite (IHr1 b c); auto.
  - rewrite (IHr b c); auto.
Qed.

Lemma same_on_component S r b c : In r S -> same_on (flat_map firstsyms S) b c -> same_on (firstsyms r) b c.
Proof. intros Hin H lo hi Hl. apply H. apply in_flat_map. exists r. auto. Qed.

Lemma explicit_same S b c : same_on (flat_map firstsyms S) b c -> explicit S c = explicit S b.
Proof.
  intros H. apply existsb_ext_in. intros r Hr. apply expl_same. exact (same_on_component S r b c Hr H).
Qed.

Lemma dstep_same S b c : same_on (flat_map firstsyms S) b c -> dstep S c = dstep S b.
Proof.
  intros H. unfold dstep. rewrite (explicit_same S b c H).
  apply map_ext_in. intros r Hr. apply deriv_same. eapply same_on_component; eauto.
Qed.

Lemma trans_same rows acts q S b c : same_on (ranges (row_cases rows q) S) b c ->
  trans (table_dfa rows acts) q c = trans (table_dfa rows acts) q b /\ dstep S c = dstep S b.
Proof.
  intros H. apply same_on_app in H. destruct H as [H1 H2]. split; [|apply dstep_same; exact H2].
  simpl. unfold row_cases in H1. destruct (nth_error rows (Z.to_nat q)); [|reflexivity].
  apply lookup_same. exact H1.
Qed.

Lemma dstate_eqb_eq : forall a b, dstate_eqb a b = true -> a = b.
Proof.
  induction a as [|x a IH]; destruct b as [|y b]; simpl; intros H; try discriminate; auto.
  destruct (re_eqb x y) eqn:E; [|discriminate]. apply re_eqb_eq in E. subst. f_equal. auto.
Qed.

Lemma pair_eqb_eq p q : pair_eqb p q = true -> p = q.
Proof.
  destruct p as [a S], q as [b T]. unfold pair_eqb. simpl.
  destruct (a =? b) eqn:E; [|discriminate]. apply Z.eqb_eq in E. intros H. apply dstate_eqb_eq in H. subst. reflexivity.
Qed.

Lemma mem_In p l : mem p l = true -> In p l.
Proof.
  unfold mem. intros H. apply existsb_exists in H. destruct H as (q & Hq & He).
  apply pair_eqb_eq in He. subst. exact Hq.
Qed.

Section ExploreSound.
Variable d : dfa.
Variable ks : list tkind.
Variable rows : list trow.

Definition rune_ok (X : list pair) (q : Z) (S : dstate) (b : Z) : Prop :=
  match try_rune d ks q S b with Bad => False | BothDead => True | BothLive p => In p X end.

Definition expanded (X : list pair) (p : pair) : Prop :=
  forall b, In b (reps (row_cases rows (fst p)) (snd p)) -> rune_ok X (fst p) (snd p) b.

Lemma rune_ok_mono X Y q S b : incl X Y -> rune_ok X q S b -> rune_ok Y q S b.
Proof. unfold rune_ok. intros Hi. destruct (try_rune d ks q S b); auto. Qed.

Lemma expanded_mono X Y p : incl X Y -> expanded X p -> expanded Y p.
Proof. intros Hi H b Hb. eapply rune_ok_mono; eauto. Qed.

Lemma check_reps_sound q S : forall rs acc out, check_reps d ks q S rs acc = Some out ->
  incl acc out /\ forall b, In b rs -> rune_ok out q S b.
Proof.
  induction rs as [|b rs IH]; intros acc out H; simpl in H.
  - inversion H; subst. split; [apply incl_refl|intros b []].
  - destruct (try_rune d ks q S b) as [| |p] eqn:E; [discriminate| |].
    + destruct (IH _ _ H) as [Hi Hok]. split; [exact Hi|].
      intros b' [<-|Hb]; [|auto]. unfold rune_ok. rewrite E. exact I.
    + destruct (IH _ _ H) as [Hi Hok].
      assert (Hp : In p out /\ incl acc out).
      { destruct (mem p acc) eqn:Em.
        - split; [apply Hi; apply mem_In; exact Em|exact Hi].
        - split; [apply Hi; left; reflexivity|]. intros x Hx. apply Hi. right. exact Hx. }
      destruct Hp as [Hp Hi']. split; [exact Hi'|].
      intros b' [<-|Hb]; [|auto]. unfold rune_ok. rewrite E. exact Hp.
Qed.

Lemma succs_sound p ps : succs d ks rows p = Some ps -> expanded ps p.
Proof. unfold succs. intros H b Hb. destruct (check_reps_sound _ _ _ _ _ H) as [_ Hok]. auto. Qed.

Lemma explore_eq fuel todo seen :
  explore d ks rows fuel todo seen =
  match todo with
  | [] => Some seen
  | p :: todo' =>
    if mem p seen then explore d ks rows fuel todo' seen
    else match fuel with
         | O => None
         | S f => match succs d ks rows p with
                  | None => None
                  | Some ps => explore d ks rows f (ps ++ todo') (p :: seen)
                  end
         end
  end.
Proof. destruct fuel, todo; reflexivity. Qed.

(** [explore] is a [fix] over [todo] nested in a [Fixpoint] over the fuel, which only decreases when a new
    pair is expanded: hence strong induction on the fuel outside, induction on [todo] inside. *)
Lemma explore_sound : forall fuel todo seen X,
  explore d ks rows fuel todo seen = Some X ->
  (forall p, In p seen -> expanded (seen ++ todo) p) ->
  incl seen X /\ incl todo X /\ forall p, In p X -> expanded X p.
Proof.
  induction fuel as [fuel IHf] using Wf_nat.lt_wf_ind.
  induction todo as [|p todo IHt]; intros seen X H Hinv; rewrite explore_eq in H.
  - injection H as <-. split; [apply incl_refl|]. split; [intros x []|].
    intros p Hp. rewrite <- (app_nil_r seen). exact (Hinv p Hp).
  - destruct (mem p seen) eqn:Em.
    + apply mem_In in Em. destruct (IHt seen X H) as (H1 & H2 & H3).
      { intros p0 Hp0. eapply expanded_mono; [|exact (Hinv p0 Hp0)].
        apply incl_app; [apply incl_appl, incl_refl|].
        apply incl_cons; [apply in_or_app; left; exact Em|apply incl_appr, incl_refl]. }
      split; [exact H1|]. split; [|exact H3]. apply incl_cons; [exact (H1 p Em)|exact H2].
    + destruct fuel as [|f]; [discriminate|].
      destruct (succs d ks rows p) as [ps|] eqn:Es; [|discriminate].
      destruct (IHf f (Nat.lt_succ_diag_r f) (ps ++ todo) (p :: seen) X H) as (H1 & H2 & H3).
      { intros p0 [<-|Hp0].
        - eapply expanded_mono; [|exact (succs_sound _ _ Es)].
          apply incl_tl, incl_appr, incl_appl, incl_refl.
        - eapply expanded_mono; [|exact (Hinv p0 Hp0)].
          apply incl_app; [apply incl_tl, incl_appl, incl_refl|].
          apply incl_cons; [left; reflexivity|apply incl_tl, incl_appr, incl_appr, incl_refl]. }
      apply incl_cons_inv in H1. apply incl_app_inv in H2.
      split; [exact (proj2 H1)|]. split; [|exact H3]. apply incl_cons; [exact (proj1 H1)|exact (proj2 H2)].
Qed.
End ExploreSound.

Theorem table_bisim rows acts g ks S0 (R : Z -> dstate -> Prop) :
  dinit g = Some (ks, S0) -> R 0 S0 ->
  (forall q S c, R q S -> 0 <= c <= MAXRUNE ->
     let t := trans (table_dfa rows acts) q c in
     if t =? -1 then live (dstep S c) = false
     else live (dstep S c) = true /\ accept (table_dfa rows acts) t = verdict ks (dstep S c) /\ R t (dstep S c)) ->
  forall k l, Forall byte (rest l) -> scan_n decode_rune (table_dfa rows acts) k l = dscan_n g k l.
Proof.
  intros Hg H0 Hstep k l Hl. unfold dscan_n. rewrite Hg, <- gscan_n_dfa.
  apply (gscan_n_bisim Z dstate decode_rune _ _ (fun c => 0 <= c <= MAXRUNE) byte decode_rune_range R);
    [|exact H0|exact Hl].
  intros q S HR c Hc. specialize (Hstep q S c HR Hc). cbn [dfa_machine dmachine m_step m_acc] in *.
  destruct (trans (table_dfa rows acts) q c =? -1).
  - rewrite Hstep. exact I.
  - destruct Hstep as (-> & Ha & HR'). auto.
Qed.

(** Soundness of the checker.  Side condition: the input is a sequence of bytes.  No well-formedness of the
    table or of the ranges is needed (an ill-formed table simply fails the check or is faithfully
    interpreted by [lookup]). *)
Theorem bisim_check_sound rows acts g fuel :
  bisim_check rows acts g fuel = true ->
  forall k l, Forall byte (rest l) ->
    scan_n decode_rune (table_dfa rows acts) k l = dscan_n g k l.
Proof.
  unfold bisim_check. destruct (dinit g) as [[ks S0]|] eqn:Hg; [|discriminate].
  set (d := table_dfa rows acts). destruct (explore d ks rows fuel [(0, S0)] []) as [X|] eqn:Hex; [|discriminate].
  intros _. destruct (explore_sound d ks rows _ _ _ _ Hex) as (_ & Hstart & Hclosed); [intros p []|].
  apply (table_bisim rows acts g ks S0 (fun q S => In (q, S) X) Hg); [apply Hstart; left; reflexivity|].
  (* a rune behaves like the representative of its cell, which the exploration has tried *)
  intros q S c Hin Hc. destruct (rep_exists (row_cases rows q) S c Hc) as (b & Hb & Hsame).
  destruct (trans_same rows acts q S b c Hsame) as [Ht Hd]. cbv zeta. fold d in Ht |- *. rewrite Ht, Hd.
  pose proof (Hclosed _ Hin b Hb) as Hok. unfold rune_ok, try_rune in Hok. cbn [fst snd] in Hok.
  destruct (trans d q b =? -1).
  - destruct (live (dstep S b)); [contradiction|reflexivity].
  - destruct (live (dstep S b)); [|contradiction].
    destruct (accept d (trans d q b) =? verdict ks (dstep S b)) eqn:Ea; [|contradiction].
    apply Z.eqb_eq in Ea. auto.
Qed.

Corollary bisim_check_sound_init rows acts g fuel :
  bisim_check rows acts g fuel = true ->
  forall k bytes, Forall byte bytes ->
    scan_n decode_rune (table_dfa rows acts) k (init bytes) = dscan_n g k (init bytes).
Proof. intros H k bytes Hb. apply (bisim_check_sound _ _ _ _ H). exact Hb. Qed.

Corollary bisim_check_ScanSpec rows acts g fuel ks S0 :
  bisim_check rows acts g fuel = true -> dinit g = Some (ks, S0) ->
  forall l t l', Forall byte (rest l) ->
    scan decode_rune (table_dfa rows acts) l = Some (t, l') ->
    ScanSpec dstate decode_rune (dmachine ks S0) l t l'.
Proof.
  intros H Hg l t l' Hl Hs.
  pose proof (bisim_check_sound _ _ _ _ H 1%nat l Hl) as E.
  unfold dscan_n in E. rewrite Hg in E. cbn [scan_n gscan_n] in E. rewrite Hs in E.
  destruct (gscan decode_rune (dmachine ks S0) l) as [[t2 l2]|] eqn:E2; [|discriminate].
  inversion E; subst. apply gscan_ScanSpec. exact E2.
Qed.

Lemma dsteps_snoc : forall w S c, dsteps S (w ++ [c]) = dstep (dsteps S w) c.
Proof. induction w as [|x w IH]; intros S c; simpl; [reflexivity|apply IH]. Qed.

Section OnDmachine.
Variable decode : list Z -> Z * nat.
Variable ks : list tkind.
Variable S0 : dstate.

Lemma Reads_dmachine start bs s cur ty :
  Reads dstate decode (dmachine ks S0) S0 start INVALID bs s cur ty ->
  exists rs, Decodes decode start bs rs cur /\ s = dsteps S0 rs /\
             (rs = [] -> ty = INVALID) /\ (rs <> [] -> ty = verdict ks (dsteps S0 rs)).
Proof.
  intros H. destruct (Reads_runes _ _ _ _ _ _ _ _ _ _ H) as (rs & HD & Hm & H0 & H1).
  apply msteps_dmachine in Hm. exists rs. repeat split; auto.
  intros Hne. rewrite (H1 Hne). subst. reflexivity.
Qed.

Lemma dmachine_step_none S c : m_step (dmachine ks S0) S c = None <-> live (dstep S c) = false.
Proof. simpl. destruct (live (dstep S c)); split; congruence. Qed.

Lemma dmachine_step_some S c S' : m_step (dmachine ks S0) S c = Some S' <-> live (dstep S c) = true /\ S' = dstep S c.
Proof.
  simpl. destruct (live (dstep S c)); split; try congruence.
  - intros E. inversion E. auto.
  - intros [_ ->]. reflexivity.
  - intros [E _]. discriminate.
Qed.
End OnDmachine.

(** For a dot-free grammar (patterns [kps] after macro expansion): while scanning one lexeme, after
    the characters [rs] have been read,
    - the recorded token type is the priority winner among the definitions matching [rs]
      (string literal first, else earliest declared; -1 for an ignored token; 0 if none matches);
    - the next character [c] has a transition iff [rs ++ [c]] is still a prefix of some lexeme. *)
Theorem dotfree_reads decode kps start bs s cur ty :
  Forall (fun kp => dotfree (snd kp) = true) kps ->
  Reads dstate decode (dmachine (map fst kps) (dstate0 kps)) (dstate0 kps) start INVALID bs s cur ty ->
  exists rs, Decodes decode start bs rs cur /\
    (rs = [] -> ty = INVALID) /\
    (rs <> [] -> Winner (fun p => matches p rs) kps ty) /\
    (forall c, m_step (dmachine (map fst kps) (dstate0 kps)) s c <> None <->
               exists kp sfx, In kp kps /\ matches (snd kp) (rs ++ c :: sfx)) /\
    (forall c s1, m_step (dmachine (map fst kps) (dstate0 kps)) s c = Some s1 ->
               Winner (fun p => matches p (rs ++ [c])) kps (m_acc (dmachine (map fst kps) (dstate0 kps)) s1)).
Proof.
  intros Hdf H. destruct (Reads_dmachine _ _ _ _ _ _ _ _ H) as (rs & HD & Hs & H0 & H1).
  exists rs. split; [exact HD|]. split; [exact H0|]. split; [|split].
  - intros Hne. rewrite (H1 Hne). apply verdict_correct. exact Hdf.
  - intros c. subst s. rewrite dmachine_step_none. rewrite <- dsteps_snoc.
    pose proof (live_prefix kps (rs ++ [c]) Hdf) as Hl.
    assert (E : forall sfx, (rs ++ [c]) ++ sfx = rs ++ c :: sfx) by (intros; rewrite <- app_assoc; reflexivity).
    split.
    + intros Hn. destruct (live (dsteps (dstate0 kps) (rs ++ [c]))) eqn:El; [|congruence].
      destruct Hl as [Hl _]. destruct (Hl eq_refl) as (kp & sfx & Hin & Hm). exists kp, sfx. rewrite <- E. auto.
    + intros (kp & sfx & Hin & Hm). destruct Hl as [_ Hl]. rewrite Hl; [discriminate|].
      exists kp, sfx. rewrite E. auto.
  - intros c s1 Hst. apply dmachine_step_some in Hst. destruct Hst as [_ ->]. subst s.
    rewrite <- dsteps_snoc. simpl. apply verdict_correct. exact Hdf.
Qed.

Print Assumptions gscan_n_bisim.
Print Assumptions bisim_check_sound.
Print Assumptions bisim_check_sound_init.
Print Assumptions bisim_check_ScanSpec.
Print Assumptions dotfree_reads.
