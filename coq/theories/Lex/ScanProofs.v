(** Proofs about the Scan model (C08): positions, tiling, termination, the end-of-input token.
    For every DFA, every decoder making progress, every source.
    The loop is reasoned about once, as [Deriv.gloop] over any automaton; [Scan.loop] is its
    instance on the state numbers of a DFA ([gloop_dfa]). *)
From Coq Require Import List ZArith Lia Bool.
From Gocc Require Import Lex.Scan Base.Utf8 Lex.Pattern Lex.Deriv.
Import ListNotations.
Open Scope Z_scope.

(** ** Definitional position functions of the property *)

Fixpoint count_nl (rs : list Z) : Z :=
  match rs with [] => 0 | r :: t => (if r =? 10 then 1 else 0) + count_nl t end.

Definition width (r : Z) : Z := if r =? 9 then 4 else 1.
Fixpoint widths (rs : list Z) : Z := match rs with [] => 0 | r :: t => width r + widths t end.
Definition is_break (r : Z) : bool := (r =? 10) || (r =? 13).

(** the runes after the last carriage return or newline *)
Fixpoint since_break (rs : list Z) : list Z :=
  match rs with
  | [] => []
  | r :: t => if existsb is_break t then since_break t
              else if is_break r then t else r :: t
  end.

Definition line_of (rs : list Z) : Z := 1 + count_nl rs.
Definition col_of (rs : list Z) : Z := 1 + widths (since_break rs).

Lemma count_nl_app a b : count_nl (a ++ b) = count_nl a + count_nl b.
Proof. induction a as [|x a IH]; cbn [count_nl app]; [reflexivity|]. rewrite IH. lia. Qed.

Lemma widths_app a b : widths (a ++ b) = widths a + widths b.
Proof. induction a as [|x a IH]; cbn [widths app]; [reflexivity|]. rewrite IH. lia. Qed.

(** The fold the implementation performs agrees with the definitional functions. *)
Lemma line_of_snoc rs r : line_of (rs ++ [r]) = adv_line r (line_of rs).
Proof.
  unfold line_of, adv_line. rewrite count_nl_app. cbn [count_nl]. destruct (r =? 10); lia.
Qed.

Lemma since_break_snoc rs r :
  since_break (rs ++ [r]) = if is_break r then [] else since_break rs ++ [r].
Proof.
  induction rs as [|x rs IH]; simpl.
  - destruct (is_break r); reflexivity.
  - rewrite existsb_app. simpl. rewrite orb_false_r.
    destruct (is_break r) eqn:Er.
    + rewrite orb_true_r. exact IH.
    + rewrite orb_false_r. destruct (existsb is_break rs) eqn:Eb.
      * exact IH.
      * destruct (is_break x); reflexivity.
Qed.

Lemma col_of_snoc rs r : col_of (rs ++ [r]) = adv_col r (col_of rs).
Proof.
  unfold col_of, adv_col. rewrite since_break_snoc. unfold is_break.
  destruct (r =? 10) eqn:E1; [reflexivity|].
  destruct (r =? 13) eqn:E2; [reflexivity|]. cbn [orb].
  rewrite widths_app. cbn [widths]. unfold width. destruct (r =? 9); lia.
Qed.

Lemma firstn_length_le' {A} (l : list A) n : (n <= length l)%nat -> length (firstn n l) = n.
Proof. apply firstn_length_le. Qed.

Section ScanProofs.
Variable decode : list Z -> Z * nat.
Variable d : dfa.

(** the only thing assumed of the decoder: it makes progress inside the input *)
Hypothesis decode_progress : forall bs r sz, bs <> [] -> decode bs = (r, sz) ->
  (1 <= sz <= length bs)%nat.

(** [Boundary src pre rs]: [pre] is a prefix of [src] ending at a character boundary of the
    iterated decoding of [src] from its start, and [rs] are the characters decoded in it. *)
Inductive Boundary (src : list Z) : list Z -> list Z -> Prop :=
| B0 : Boundary src [] []
| BS pre rs rst r sz : Boundary src pre rs -> src = pre ++ rst -> rst <> [] -> decode rst = (r, sz) ->
    Boundary src (pre ++ firstn sz rst) (rs ++ [r]).

(** a lexer state is consistent with [src] *)
Definition Good (src : list Z) (l : lst) : Prop :=
  exists pre rs, Boundary src pre rs /\ src = pre ++ rest l /\ off l = Z.of_nat (length pre) /\
                 line l = line_of rs /\ col l = col_of rs.

Lemma Good_init src : Good src (init src).
Proof. exists [], []. repeat split; try constructor. Qed.

Lemma consume_Good src l r sz :
  Good src l -> rest l <> [] -> decode (rest l) = (r, sz) -> Good src (consume r sz l).
Proof.
  intros (pre & rs & HB & Hsrc & Hoff & Hl & Hc) Hne Hd.
  pose proof (decode_progress _ _ _ Hne Hd) as Hsz.
  exists (pre ++ firstn sz (rest l)), (rs ++ [r]). unfold consume; simpl. repeat split.
  - econstructor; eauto.
  - rewrite <- app_assoc, firstn_skipn. exact Hsrc.
  - rewrite app_length, firstn_length_le by lia. lia.
  - rewrite line_of_snoc, Hl. reflexivity.
  - rewrite col_of_snoc, Hc. reflexivity.
Qed.

Lemma consume_split l r sz : firstn sz (rest l) ++ rest (consume r sz l) = rest l.
Proof. apply firstn_skipn. Qed.

Lemma Good_off src l l' m : Good src l -> Good src l' -> rest l = m ++ rest l' ->
  off l' = off l + Z.of_nat (length m).
Proof.
  intros (p & r & _ & Hs & Ho & _) (p' & r' & _ & Hs' & Ho' & _) E.
  rewrite E, Hs', app_assoc in Hs. apply app_inv_tail in Hs. subst p'.
  rewrite Ho, Ho', app_length. lia.
Qed.

Definition TokPos (src : list Z) (t : tok) : Prop :=
  exists pre rs post, Boundary src pre rs /\ src = pre ++ lit t ++ post /\
    toff t = Z.of_nat (length pre) /\ tline t = line_of rs /\ tcol t = col_of rs.

Section Machine.
Variable St : Type.
Variable M : machine St.

Lemma gloop_end fuel s cur start acc ttype skip : rest cur = [] ->
  gloop decode M (S fuel) s cur start acc ttype skip =
  Some ({| ty := ttype; lit := acc; toff := off start; tline := line start; tcol := col start; skipped := skip |}, cur).
Proof. intros E. cbn [gloop]. rewrite E. reflexivity. Qed.

Lemma gloop_step fuel s cur start acc ttype skip r sz : rest cur <> [] -> decode (rest cur) = (r, sz) ->
  gloop decode M (S fuel) s cur start acc ttype skip =
  match m_step M s r with
  | None =>
    if ttype =? INVALID then
      Some ({| ty := INVALID; lit := acc ++ firstn sz (rest cur); toff := off start; tline := line start;
               tcol := col start; skipped := skip |}, consume r sz cur)
    else Some ({| ty := ttype; lit := acc; toff := off start; tline := line start; tcol := col start;
                  skipped := skip |}, cur)
  | Some ns =>
    if negb (m_acc M ns =? -1) then
      gloop decode M fuel ns (consume r sz cur) start (acc ++ firstn sz (rest cur)) (m_acc M ns) skip
    else gloop decode M fuel (m_start M) (consume r sz cur) (consume r sz cur) []
           (match rest (consume r sz cur) with [] => EOF | _ => INVALID end) (skip ++ acc ++ firstn sz (rest cur))
  end.
Proof. intros Hne Hd. cbn [gloop]. destruct (rest cur); [contradiction|]. rewrite Hd. reflexivity. Qed.

Lemma nil_dec {A} (l : list A) : l = [] \/ l <> [].
Proof. destruct l; [left; reflexivity|right; discriminate]. Qed.

(** The loop keeps every invariant [G] of the lexer state that [consume] keeps, and the token
    carries the position of a state [st] satisfying it: the ignored text ends at [st], the literal
    starts there.  With [G] trivial this is the tiling of the input, with [G := Good src] the
    positions. *)
Section Inv.
Variable G : lst -> Prop.
Hypothesis G_consume : forall l r sz, G l -> rest l <> [] -> decode (rest l) = (r, sz) -> G (consume r sz l).

Lemma gloop_inv : forall fuel s cur start acc ttype skip t l',
  gloop decode M fuel s cur start acc ttype skip = Some (t, l') ->
  G cur -> G start -> rest start = acc ++ rest cur ->
  G l' /\ exists st, G st /\ skip ++ rest start = skipped t ++ rest st /\ rest st = lit t ++ rest l' /\
                     toff t = off st /\ tline t = line st /\ tcol t = col st.
Proof.
  induction fuel as [|fuel IH]; intros s cur start acc ttype skip t l' Hrun Hcur Hstart Hacc; [discriminate|].
  destruct (nil_dec (rest cur)) as [He|Hne].
  - rewrite (gloop_end _ _ _ _ _ _ _ He) in Hrun. injection Hrun as <- <-. split; [exact Hcur|].
    exists start. rewrite Hacc, He. auto 7.
  - destruct (decode (rest cur)) as [r sz] eqn:Hd. rewrite (gloop_step _ _ _ _ _ _ _ _ _ Hne Hd) in Hrun.
    pose proof (G_consume cur r sz Hcur Hne Hd) as Hcur'.
    assert (Hacc' : rest start = (acc ++ firstn sz (rest cur)) ++ rest (consume r sz cur)).
    { rewrite <- app_assoc, consume_split. exact Hacc. }
    destruct (m_step M s r) as [ns|].
    + destruct (negb (m_acc M ns =? -1)).
      * exact (IH _ _ _ _ _ _ _ _ Hrun Hcur' Hstart Hacc').
      * destruct (IH _ _ _ _ _ _ _ _ Hrun Hcur' Hcur' eq_refl) as (Hl' & st & Hst & Hskip & Hpos).
        split; [exact Hl'|]. exists st. rewrite <- Hskip, Hacc', <- !app_assoc. auto.
    + destruct (ttype =? INVALID); injection Hrun as <- <-.
      * split; [exact Hcur'|]. exists start. auto 7.
      * split; [exact Hcur|]. exists start. auto 7.
Qed.

Lemma gscan_inv l t l' : gscan decode M l = Some (t, l') -> G l ->
  G l' /\ exists st, G st /\ rest l = skipped t ++ rest st /\ rest st = lit t ++ rest l' /\
                     toff t = off st /\ tline t = line st /\ tcol t = col st.
Proof.
  unfold gscan. destruct (rest l) eqn:E.
  - intros [= <- <-] Hl. split; [exact Hl|]. exists l. auto 7.
  - rewrite <- E. intros H Hl. exact (gloop_inv _ _ _ _ _ _ _ _ _ H Hl Hl eq_refl).
Qed.
End Inv.

(** The measure is [length (rest cur)]: every turn consumes at least one byte, and the restart after an
    ignored lexeme does not reset it, so the fuel [S (length (rest l))] of [gscan] covers the whole
    call, skipped lexemes included. *)
Lemma gloop_fuel : forall fuel s cur start acc ttype skip,
  (length (rest cur) < fuel)%nat ->
  gloop decode M fuel s cur start acc ttype skip <> None.
Proof.
  induction fuel as [|fuel IH]; intros s cur start acc ttype skip Hlen; [lia|].
  destruct (nil_dec (rest cur)) as [He|Hne]; [rewrite (gloop_end _ _ _ _ _ _ _ He); discriminate|].
  destruct (decode (rest cur)) as [r sz] eqn:Hd. rewrite (gloop_step _ _ _ _ _ _ _ _ _ Hne Hd).
  pose proof (decode_progress _ _ _ Hne Hd) as Hsz.
  destruct (m_step M s r) as [ns|]; [|destruct (ttype =? INVALID); discriminate].
  assert (Hl : (length (rest (consume r sz cur)) < fuel)%nat).
  { cbn [consume rest]. rewrite skipn_length. lia. }
  destruct (negb (m_acc M ns =? -1)); apply IH; exact Hl.
Qed.

(** The side condition is the invariant: [ttype] is EOF only right after a restart at the end of the
    input, with nothing accumulated. *)
Lemma gloop_eof : (forall s, m_acc M s <> EOF) ->
  forall fuel s cur start acc ttype skip t l',
  (ttype = EOF -> rest cur = [] /\ acc = []) ->
  gloop decode M fuel s cur start acc ttype skip = Some (t, l') -> ty t = EOF -> rest l' = [] /\ lit t = [].
Proof.
  intros Hnoeof. induction fuel as [|fuel IH]; intros s cur start acc ttype skip t l' Hty Hrun Ht; [discriminate|].
  destruct (nil_dec (rest cur)) as [He|Hne].
  - rewrite (gloop_end _ _ _ _ _ _ _ He) in Hrun. injection Hrun as <- <-. split; [exact He|exact (proj2 (Hty Ht))].
  - destruct (decode (rest cur)) as [r sz] eqn:Hd. rewrite (gloop_step _ _ _ _ _ _ _ _ _ Hne Hd) in Hrun.
    destruct (m_step M s r) as [ns|].
    + destruct (negb (m_acc M ns =? -1)); eapply IH; try exact Hrun; try exact Ht.
      * intros E. destruct (Hnoeof _ E).
      * destruct (rest (consume r sz cur)); [auto|discriminate].
    + destruct (ttype =? INVALID); injection Hrun as <- <-; [discriminate|exact (Hty Ht)].
Qed.

Theorem gscan_total l : gscan decode M l <> None.
Proof.
  unfold gscan. destruct (rest l) eqn:E; [discriminate|]. rewrite <- E. apply gloop_fuel. lia.
Qed.

Theorem gscan_tiles l t l' : gscan decode M l = Some (t, l') -> rest l = skipped t ++ lit t ++ rest l'.
Proof.
  intros H. destruct (gscan_inv (fun _ => True) (fun _ _ _ _ _ _ => I) l t l' H I) as (_ & st & _ & E1 & E2 & _).
  rewrite E1, E2. reflexivity.
Qed.

Theorem gscan_spec src l t l' :
  Good src l -> gscan decode M l = Some (t, l') ->
  Good src l' /\ TokPos src t /\ rest l = skipped t ++ lit t ++ rest l' /\
  toff t = off l + Z.of_nat (length (skipped t)).
Proof.
  intros HG Hs.
  destruct (gscan_inv (Good src) (consume_Good src) l t l' Hs HG) as (HG' & st & Hst & Hskip & Hrest & Ho & Hl & Hc).
  rewrite Ho, (Good_off src l st _ HG Hst Hskip).
  destruct Hst as (pre & rs & HB & Hsrc & Hoff & Hline & Hcol).
  repeat split; [exact HG'| |rewrite Hskip, Hrest; reflexivity].
  exists pre, rs, (rest l'). rewrite <- Hrest. repeat split; congruence.
Qed.

Theorem gscan_eof l t l' : (forall s, m_acc M s <> EOF) ->
  gscan decode M l = Some (t, l') -> ty t = EOF -> rest l' = [] /\ lit t = [].
Proof.
  intros Hno. unfold gscan. destruct (rest l) eqn:E.
  - intros [= <- <-] _. auto.
  - apply (gloop_eof Hno). discriminate.
Qed.
End Machine.

Lemma gloop_dfa : forall fuel s cur start acc ttype skip,
  gloop decode (dfa_machine d) fuel s cur start acc ttype skip
  = loop decode d fuel s cur start acc ttype skip.
Proof.
  induction fuel as [|fuel IH]; intros; [reflexivity|].
  destruct (nil_dec (rest cur)) as [He|Hne]; [rewrite (gloop_end _ _ _ _ _ _ _ _ _ He); cbn [loop]; rewrite He; reflexivity|].
  destruct (decode (rest cur)) as [r sz] eqn:Hd. rewrite (gloop_step _ _ _ _ _ _ _ _ _ _ _ Hne Hd).
  cbn [loop dfa_machine m_step m_acc m_start]. destruct (rest cur); [contradiction|]. rewrite Hd.
  destruct (trans d s r =? -1); [reflexivity|].
  destruct (negb (accept d (trans d s r) =? -1)); apply IH.
Qed.

Theorem gscan_dfa l : gscan decode (dfa_machine d) l = scan decode d l.
Proof. unfold gscan, scan. destruct (rest l); [reflexivity|]. apply gloop_dfa. Qed.

Theorem scan_total l : scan decode d l <> None.
Proof. rewrite <- gscan_dfa. apply gscan_total. Qed.

Theorem scan_spec src l t l' :
  Good src l -> scan decode d l = Some (t, l') ->
  Good src l' /\ TokPos src t /\ rest l = skipped t ++ lit t ++ rest l' /\
  toff t = off l + Z.of_nat (length (skipped t)).
Proof. rewrite <- gscan_dfa. apply gscan_spec. Qed.

Theorem scan_eof_sticky l : rest l = [] ->
  scan decode d l = Some ({| ty := EOF; lit := []; toff := off l; tline := line l; tcol := col l; skipped := [] |}, l).
Proof. intros H. unfold scan. rewrite H. reflexivity. Qed.

Theorem scan_eof_only_at_end l t l' : (forall s, accept d s <> EOF) ->
  scan decode d l = Some (t, l') -> ty t = EOF -> rest l' = [] /\ lit t = [].
Proof. rewrite <- gscan_dfa. exact (gscan_eof Z (dfa_machine d) l t l'). Qed.

(** offsets chain: each literal starts where the previous lexeme ended plus the ignored text *)
Fixpoint tiles (o : Z) (ts : list tok) : Prop :=
  match ts with
  | [] => True
  | t :: ts' => toff t = o + Z.of_nat (length (skipped t)) /\ tiles (toff t + Z.of_nat (length (lit t))) ts'
  end.

Definition pieces (ts : list tok) : list Z := concat (map (fun t => skipped t ++ lit t) ts).

Theorem scan_n_total k l : scan_n decode d k l <> None.
Proof.
  revert l. induction k as [|k IH]; intros l; simpl; [discriminate|].
  destruct (scan decode d l) as [[t l']|] eqn:E; [|exfalso; exact (scan_total l E)].
  destruct (scan_n decode d k l') as [[ts l'']|] eqn:E2; [discriminate|exfalso; exact (IH l' E2)].
Qed.

Theorem scan_n_spec src : forall k l ts l',
  Good src l -> scan_n decode d k l = Some (ts, l') ->
  Good src l' /\ Forall (TokPos src) ts /\ rest l = pieces ts ++ rest l' /\ tiles (off l) ts /\
  off l' = off l + Z.of_nat (length (pieces ts)).
Proof.
  induction k as [|k IH]; intros l ts l' HG Hrun; simpl in Hrun.
  - inversion Hrun; subst. simpl. repeat split; auto. lia.
  - destruct (scan decode d l) as [[t l1]|] eqn:E; [|discriminate].
    destruct (scan_n decode d k l1) as [[ts1 l2]|] eqn:E2; [|discriminate].
    inversion Hrun; subst ts l'; clear Hrun.
    destruct (scan_spec src l t l1 HG E) as (HG1 & HT & Hrest & Hoff).
    destruct (IH l1 ts1 l2 HG1 E2) as (HG2 & HF & Hrest2 & Htiles & _).
    assert (Hoff1 : off l1 = toff t + Z.of_nat (length (lit t))).
    { rewrite (Good_off src l l1 _ HG HG1 (eq_trans Hrest (app_assoc _ _ _))), app_length. lia. }
    assert (Hrest' : rest l = pieces (t :: ts1) ++ rest l2).
    { unfold pieces in *. simpl. rewrite Hrest, Hrest2, <- !app_assoc. reflexivity. }
    repeat split; auto.
    + rewrite <- Hoff1. exact Htiles.
    + exact (Good_off src l l2 _ HG HG2 Hrest').
Qed.

End ScanProofs.

(** ** Facts about ranges and lists shared by the proof files of this directory *)
Lemma in_rng_iff lo hi x : in_rng lo hi x = true <-> lo <= x <= hi.
Proof. unfold in_rng. rewrite andb_true_iff, !Z.leb_le. reflexivity. Qed.

Lemma nth_error_lt {A} (l : list A) n x : nth_error l n = Some x -> (n < length l)%nat.
Proof. intros H. apply nth_error_Some. congruence. Qed.

Lemma forallb_map {A B} (f : A -> B) (q : B -> bool) l : forallb q (map f l) = forallb (fun x => q (f x)) l.
Proof. induction l as [|x l IH]; simpl; [reflexivity|]. rewrite IH. reflexivity. Qed.

Lemma forallb_ext_in {A} (f g : A -> bool) l : (forall x, In x l -> f x = g x) -> forallb f l = forallb g l.
Proof.
  induction l as [|x l IH]; intros H; [reflexivity|]. simpl.
  rewrite (H x (or_introl eq_refl)), IH; [reflexivity|]. intros y Hy. apply H. right. exact Hy.
Qed.

Lemma existsb_ext_in {A} (f g : A -> bool) l : (forall x, In x l -> f x = g x) -> existsb f l = existsb g l.
Proof.
  induction l as [|x l IH]; intros H; [reflexivity|]. simpl.
  rewrite (H x (or_introl eq_refl)), IH; [reflexivity|]. intros y Hy. apply H. right. exact Hy.
Qed.

Lemma flat_map_ext_in {A B} (f g : A -> list B) : forall l, (forall x, In x l -> f x = g x) -> flat_map f l = flat_map g l.
Proof.
  induction l as [|x l IH]; intros H; simpl; [reflexivity|].
  rewrite (H x (or_introl eq_refl)), IH; [reflexivity|]. intros y Hy. apply H. right. exact Hy.
Qed.

Lemma Forall2_map_l {A B C} (f : A -> B) (R : B -> C -> Prop) : forall l l',
  Forall2 R (map f l) l' -> Forall2 (fun a c => R (f a) c) l l'.
Proof.
  induction l as [|a l IH]; intros l' H; inversion H; subst; constructor; auto.
Qed.

Lemma Forall2_impl {A B} (R1 R2 : A -> B -> Prop) : (forall a b, R1 a b -> R2 a b) ->
  forall l l', Forall2 R1 l l' -> Forall2 R2 l l'.
Proof. intros H l l' HF. induction HF; constructor; auto. Qed.

Lemma Forall2_seq {A B} (R : A -> B -> Prop) (f : nat -> B) : forall (l : list A) s,
  (forall j x, nth_error l j = Some x -> R x (f (s + j)%nat)) -> Forall2 R l (map f (seq s (length l))).
Proof.
  induction l as [|x l IH]; intros s H; simpl; constructor.
  - specialize (H 0%nat x eq_refl). rewrite Nat.add_0_r in H. exact H.
  - apply IH. intros j y Hj. replace (S s + j)%nat with (s + S j)%nat by lia. apply H. exact Hj.
Qed.

Lemma lookup_spec : forall cs c dflt,
  (exists lo hi t, In (lo, hi, t) cs /\ lo <= c <= hi /\ lookup cs c dflt = t) \/
  ((forall lo hi t, In (lo, hi, t) cs -> ~ lo <= c <= hi) /\ lookup cs c dflt = dflt).
Proof.
  induction cs as [|[[lo hi] t] cs IH]; intros c dflt.
  - right. split; [intros ? ? ? []|reflexivity].
  - simpl. change ((lo <=? c) && (c <=? hi)) with (in_rng lo hi c). destruct (in_rng lo hi c) eqn:E.
    + left. exists lo, hi, t. split; [left; reflexivity|]. split; [apply in_rng_iff, E|reflexivity].
    + destruct (IH c dflt) as [(lo' & hi' & t' & Hin & Hc & Hl)|[Hno Hl]].
      * left. exists lo', hi', t'. auto.
      * right. split; [|exact Hl]. intros lo' hi' t' [[= <- <- <-]|Hin]; [|eauto].
        intros H. apply in_rng_iff in H. congruence.
Qed.

(** Case analysis of [decode_rune] on a non-empty input: the error rune for one byte, or one of the
    four well-formed shapes, with the ranges the decoder has checked (the tightened second byte
    after 0xF4 is what keeps the result below 0x110000). *)
Lemma decode_rune_shapes b0 t (P : Z * nat -> Prop) :
  P (rune_error, 1%nat) ->
  (b0 < 128 -> P (b0, 1%nat)) ->
  (forall b1 u, t = b1 :: u -> 194 <= b0 <= 223 -> 128 <= b1 <= 191 ->
     P ((b0 - 192) * 64 + (b1 - 128), 2%nat)) ->
  (forall b1 b2 u, t = b1 :: b2 :: u -> 224 <= b0 <= 239 ->
     (if b0 =? 224 then 160 else 128) <= b1 <= (if b0 =? 237 then 159 else 191) -> 128 <= b2 <= 191 ->
     P ((b0 - 224) * 4096 + (b1 - 128) * 64 + (b2 - 128), 3%nat)) ->
  (forall b1 b2 b3 u, t = b1 :: b2 :: b3 :: u -> 240 <= b0 <= 244 ->
     (if b0 =? 240 then 144 else 128) <= b1 <= (if b0 =? 244 then 143 else 191) ->
     128 <= b2 <= 191 -> 128 <= b3 <= 191 ->
     P ((b0 - 240) * 262144 + (b1 - 128) * 4096 + (b2 - 128) * 64 + (b3 - 128), 4%nat)) ->
  P (decode_rune (b0 :: t)).
Proof.
  intros Herr H1 H2 H3 H4. unfold decode_rune, cont. cbv zeta.
  destruct (Z.ltb_spec b0 128); [auto|].
  destruct (in_rng 194 223 b0) eqn:E1.
  { destruct t as [|b1 u]; [exact Herr|]. destruct (in_rng 128 191 b1) eqn:C1; [|exact Herr].
    apply in_rng_iff in E1, C1. exact (H2 b1 u eq_refl E1 C1). }
  destruct (in_rng 224 239 b0) eqn:E2.
  { destruct t as [|b1 [|b2 u]]; try exact Herr. destruct (andb _ _) eqn:C; [|exact Herr].
    apply andb_prop in C. destruct C as [C1 C2]. apply in_rng_iff in E2, C1, C2.
    exact (H3 b1 b2 u eq_refl E2 C1 C2). }
  destruct (in_rng 240 244 b0) eqn:E3; [|exact Herr].
  destruct t as [|b1 [|b2 [|b3 u]]]; try exact Herr. destruct (andb _ _) eqn:C; [|exact Herr].
  apply andb_prop in C. destruct C as [C C3]. apply andb_prop in C. destruct C as [C1 C2].
  apply in_rng_iff in E3, C1, C2, C3.
  exact (H4 b1 b2 b3 u eq_refl E3 C1 C2 C3).
Qed.

Lemma decode_rune_cases b0 t (P : Z * nat -> Prop) :
  P (rune_error, 1%nat) ->
  (b0 < 128 -> P (b0, 1%nat)) ->
  (forall b1 u, t = b1 :: u -> 194 <= b0 <= 223 -> 128 <= b1 <= 191 ->
     P ((b0 - 192) * 64 + (b1 - 128), 2%nat)) ->
  (forall b1 b2 u, t = b1 :: b2 :: u -> 224 <= b0 <= 239 -> 128 <= b1 <= 191 -> 128 <= b2 <= 191 ->
     P ((b0 - 224) * 4096 + (b1 - 128) * 64 + (b2 - 128), 3%nat)) ->
  (forall b1 b2 b3 u, t = b1 :: b2 :: b3 :: u -> 240 <= b0 <= 244 ->
     128 <= b1 <= 191 /\ (b0 = 244 -> b1 <= 143) -> 128 <= b2 <= 191 -> 128 <= b3 <= 191 ->
     P ((b0 - 240) * 262144 + (b1 - 128) * 4096 + (b2 - 128) * 64 + (b3 - 128), 4%nat)) ->
  P (decode_rune (b0 :: t)).
Proof.
  intros Herr H1 H2 H3 H4. apply decode_rune_shapes; try assumption.
  - intros b1 b2 u E R C1 C2. apply (H3 b1 b2 u E R); [|exact C2].
    clear - C1. destruct (b0 =? 224), (b0 =? 237); lia.
  - intros b1 b2 b3 u E R C1 C2 C3. apply (H4 b1 b2 b3 u E R); [|exact C2 | exact C3].
    clear - C1. destruct (b0 =? 240), (Z.eqb_spec b0 244); lia.
Qed.

Lemma decode_rune_progress : forall bs r sz, bs <> [] -> decode_rune bs = (r, sz) ->
  (1 <= sz <= length bs)%nat.
Proof.
  intros [|b0 t] r sz Hne H; [congruence|]. change sz with (snd (r, sz)). rewrite <- H. clear.
  apply decode_rune_cases; intros; subst; simpl; lia.
Qed.

Lemma decode_rune_bounds : forall bs, (forall b, In b bs -> 0 <= b <= 255) -> 0 <= fst (decode_rune bs) <= 1114111.
Proof.
  intros [|b0 t] Hb; [split; discriminate|]. pose proof (Hb b0 (or_introl eq_refl)) as H0.
  apply decode_rune_cases; intros; cbn [fst]; unfold rune_error; lia.
Qed.

Lemma decode_rune_nonneg : forall bs, (forall b, In b bs -> 0 <= b <= 255) -> 0 <= fst (decode_rune bs).
Proof. intros bs Hb. exact (proj1 (decode_rune_bounds bs Hb)). Qed.
