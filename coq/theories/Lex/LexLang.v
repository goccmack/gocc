(** Languages of residuals over LETTERS (rune, dot-flag): the semantic domain in which the
    position automaton of LexGen.v and the derivative automaton of Deriv.v are compared.

    A letter [(c, d)] is the rune [c] read in a state where the contextual dot may move iff [d].
    [Sym lo hi] matches [(c, d)] iff [lo <= c <= hi]; [Any] matches [(c, d)] iff [d = true].
    With this reading [Deriv.deriv dot r c] is exactly the Brzozowski derivative by [(c, dot)]
    ([deriv_lang2], no side condition).  The dot-free reading [DerivProofs.lang] is the
    restriction to words whose flags are all [false]. *)
From Coq Require Import List ZArith Lia Bool Setoid.
From Gocc Require Import Base.Utf8 Lex.Scan Lex.ScanProofs Lex.Pattern Lex.Deriv.
Import ListNotations.
Open Scope Z_scope.

(** The order on residuals is compatible with equality: what makes [alt_insert] drop duplicates. *)
Lemma re_cmp_eq : forall a b, re_cmp a b = Eq -> a = b.
Proof.
  induction a; destruct b; simpl; intros H; try discriminate; auto.
  - destruct (lo ?= lo0) eqn:E; try discriminate. apply Z.compare_eq in E, H. subst. reflexivity.
  - destruct (re_cmp a1 b1) eqn:E; try discriminate. f_equal; auto.
  - destruct (re_cmp a1 b1) eqn:E; try discriminate. f_equal; auto.
  - f_equal; auto.
Qed.

Lemma re_eqb_eq a b : re_eqb a b = true -> a = b.
Proof. unfold re_eqb. destruct (re_cmp a b) eqn:E; try discriminate. intros _. apply re_cmp_eq. exact E. Qed.

Definition letter := (Z * bool)%type.

Inductive lang2 : re -> list letter -> Prop :=
| l2_eps : lang2 Eps []
| l2_sym lo hi c d : lo <= c <= hi -> lang2 (Sym lo hi) [(c, d)]
| l2_any c : lang2 Any [(c, true)]
| l2_altl a b w : lang2 a w -> lang2 (Alt a b) w
| l2_altr a b w : lang2 b w -> lang2 (Alt a b) w
| l2_seq a b w1 w2 : lang2 a w1 -> lang2 b w2 -> lang2 (Seq a b) (w1 ++ w2)
| l2_star0 a : lang2 (Star a) []
| l2_star1 a w1 w2 : lang2 a w1 -> lang2 (Star a) w2 -> lang2 (Star a) (w1 ++ w2).

Definition seqL2 (a b : re) (w : list letter) : Prop :=
  exists w1 w2, w = w1 ++ w2 /\ lang2 a w1 /\ lang2 b w2.

Lemma lang2_Emp w : lang2 Emp w <-> False.
Proof. split; [intros H; inversion H|tauto]. Qed.
Lemma lang2_Eps w : lang2 Eps w <-> w = [].
Proof. split; [intros H; inversion H; reflexivity|intros ->; constructor]. Qed.
Lemma lang2_Sym lo hi w : lang2 (Sym lo hi) w <-> exists c d, w = [(c, d)] /\ lo <= c <= hi.
Proof.
  split; [intros H; inversion H; subst; eauto|intros (c & d & -> & H); constructor; exact H].
Qed.
Lemma lang2_Any w : lang2 Any w <-> exists c, w = [(c, true)].
Proof. split; [intros H; inversion H; subst; eauto|intros (c & ->); constructor]. Qed.
Lemma lang2_Alt a b w : lang2 (Alt a b) w <-> lang2 a w \/ lang2 b w.
Proof. split; [intros H; inversion H; auto|intros [H|H]; [apply l2_altl|apply l2_altr]; exact H]. Qed.
Lemma lang2_Seq a b w : lang2 (Seq a b) w <-> seqL2 a b w.
Proof.
  split; [intros H; inversion H; subst; exists w1, w2; auto|intros (w1 & w2 & -> & H1 & H2); constructor; auto].
Qed.

Lemma seqL2_Emp_l b w : seqL2 Emp b w <-> False.
Proof. split; [intros (w1 & w2 & _ & H & _); inversion H|tauto]. Qed.
Lemma seqL2_Emp_r a w : seqL2 a Emp w <-> False.
Proof. split; [intros (w1 & w2 & _ & _ & H); inversion H|tauto]. Qed.
Lemma seqL2_Eps_l b w : seqL2 Eps b w <-> lang2 b w.
Proof.
  split.
  - intros (w1 & w2 & -> & H1 & H2). inversion H1; subst. exact H2.
  - intros H. exists [], w. repeat split; auto. constructor.
Qed.
Lemma seqL2_Eps_r a w : seqL2 a Eps w <-> lang2 a w.
Proof.
  split.
  - intros (w1 & w2 & -> & H1 & H2). inversion H2; subst. rewrite app_nil_r. exact H1.
  - intros H. exists w, []. rewrite app_nil_r. repeat split; auto. constructor.
Qed.

Lemma seqL2_iff (P Q : list letter -> Prop) a b w :
  (forall v, lang2 a v <-> P v) -> (forall v, lang2 b v <-> Q v) ->
  (seqL2 a b w <-> exists w1 w2, w = w1 ++ w2 /\ P w1 /\ Q w2).
Proof.
  intros Ha Hb. split; intros (w1 & w2 & E & H1 & H2); exists w1, w2; (split; [exact E|]);
    (split; [apply Ha; exact H1|apply Hb; exact H2]).
Qed.

Lemma seqL2_alt a1 a2 b w : seqL2 (Alt a1 a2) b w <-> seqL2 a1 b w \/ seqL2 a2 b w.
Proof.
  unfold seqL2. split.
  - intros (w1 & w2 & E & H1 & H2). apply lang2_Alt in H1. destruct H1; [left|right]; eauto.
  - intros [(w1 & w2 & E & H1 & H2)|(w1 & w2 & E & H1 & H2)]; exists w1, w2; rewrite lang2_Alt; auto.
Qed.

Lemma seqL2_assoc a1 a2 b w : seqL2 (Seq a1 a2) b w <-> exists w1 w2, w = w1 ++ w2 /\ lang2 a1 w1 /\ seqL2 a2 b w2.
Proof.
  split.
  - intros (u & w3 & -> & H1 & H3). apply lang2_Seq in H1. destruct H1 as (w1 & w2 & -> & H1 & H2).
    exists w1, (w2 ++ w3). rewrite app_assoc. repeat split; auto. exists w2, w3. auto.
  - intros (w1 & u & -> & H1 & (w2 & w3 & -> & H2 & H3)). exists (w1 ++ w2), w3.
    rewrite app_assoc. repeat split; auto. apply lang2_Seq. exists w1, w2. auto.
Qed.

Lemma star2_ind a (P : list letter -> Prop) :
  P [] -> (forall w1 w2, lang2 a w1 -> lang2 (Star a) w2 -> P w2 -> P (w1 ++ w2)) ->
  forall w, lang2 (Star a) w -> P w.
Proof. intros H0 H1 w H. remember (Star a) as r eqn:Er. induction H; inversion Er; subst; auto. Qed.

Lemma star2_app a w1 w2 : lang2 (Star a) w1 -> lang2 (Star a) w2 -> lang2 (Star a) (w1 ++ w2).
Proof.
  intros H1 H2. revert w1 H1. apply star2_ind; [exact H2|].
  intros u1 u2 Hu1 _ IH. rewrite <- app_assoc. apply l2_star1; assumption.
Qed.

Lemma star2_nil_only a w : (forall v, lang2 a v -> v = []) -> lang2 (Star a) w -> w = [].
Proof.
  intros Ha. revert w. apply star2_ind; [reflexivity|]. intros w1 w2 H1 _ ->. rewrite (Ha _ H1). reflexivity.
Qed.

Lemma star2_star a w : lang2 (Star (Star a)) w -> lang2 (Star a) w.
Proof.
  revert w. apply (star2_ind (Star a) (lang2 (Star a))); [constructor|].
  intros w1 w2 H1 _ IH. apply star2_app; assumption.
Qed.

Lemma star2_nonempty a w : lang2 (Star a) w -> w <> [] ->
  exists w1 w2, w = w1 ++ w2 /\ w1 <> [] /\ lang2 a w1 /\ lang2 (Star a) w2.
Proof.
  revert w. refine (star2_ind a _ _ _); [congruence|]. intros w1 w2 H1 H2 IH Hne.
  destruct w1 as [|x w1]; [exact (IH Hne)|]. exists (x :: w1), w2. repeat split; auto. discriminate.
Qed.

Lemma star2_cons a c w : lang2 (Star a) (c :: w) <->
  exists w1 w2, w = w1 ++ w2 /\ lang2 a (c :: w1) /\ lang2 (Star a) w2.
Proof.
  split.
  - intros H. destruct (star2_nonempty _ _ H) as ([|x w1] & w2 & E & Hne & H1 & H2); [discriminate|congruence|].
    inversion E; subst. eauto.
  - intros (w1 & w2 & -> & H1 & H2). change (c :: w1 ++ w2) with ((c :: w1) ++ w2). apply l2_star1; auto.
Qed.

Lemma sym2_cons lo hi c d w : lang2 (Sym lo hi) ((c, d) :: w) <-> in_rng lo hi c = true /\ w = [].
Proof.
  rewrite lang2_Sym, in_rng_iff. split.
  - intros (c' & d' & [= <- <- <-] & H). auto.
  - intros [H ->]. eauto.
Qed.

Lemma any2_cons c d w : lang2 Any ((c, d) :: w) <-> d = true /\ w = [].
Proof. rewrite lang2_Any. split; [intros (c' & [= <- <- <-]); auto|intros [-> ->]; eauto]. Qed.

Lemma seq2_cons a b c w : lang2 (Seq a b) (c :: w) <->
  (exists w1 w2, w = w1 ++ w2 /\ lang2 a (c :: w1) /\ lang2 b w2) \/ (lang2 a [] /\ lang2 b (c :: w)).
Proof.
  rewrite lang2_Seq. split.
  - intros (u1 & u2 & E & H1 & H2). destruct u1 as [|x u1]; simpl in E.
    + right. subst. auto.
    + inversion E; subst. left. exists u1, u2. auto.
  - intros [(w1 & w2 & -> & H1 & H2)|[H1 H2]].
    + exists (c :: w1), w2. auto.
    + exists [], (c :: w). auto.
Qed.

Lemma star2_mono a b : (forall w, lang2 a w -> lang2 b w) -> forall w, lang2 (Star a) w -> lang2 (Star b) w.
Proof.
  intros Hab. apply star2_ind; [constructor|]. intros w1 w2 H1 _ IH. constructor; [apply Hab, H1|exact IH].
Qed.

Lemma star2_ext a b : (forall w, lang2 a w <-> lang2 b w) -> forall w, lang2 (Star a) w <-> lang2 (Star b) w.
Proof. intros H w. split; apply star2_mono; intros v; apply H. Qed.

(** the three outcomes of comparing a new alternative with an old one *)
Lemma alt_cmp_lang2 x b w :
  lang2 (match re_cmp x b with Eq => b | Lt => Alt x b | Gt => Alt b x end) w <-> lang2 x w \/ lang2 b w.
Proof.
  destruct (re_cmp x b) eqn:E; [apply re_cmp_eq in E; subst|..]; rewrite ?lang2_Alt; tauto.
Qed.

Lemma alt_insert_lang2 x : forall b w, lang2 (alt_insert x b) w <-> lang2 x w \/ lang2 b w.
Proof.
  induction b; intros w; simpl; try apply alt_cmp_lang2.
  - rewrite lang2_Emp. tauto.
  - destruct (re_cmp x b1) eqn:E.
    + apply re_cmp_eq in E. subst. rewrite lang2_Alt. tauto.
    + apply lang2_Alt.
    + rewrite !lang2_Alt, IHb2. tauto.
Qed.

Lemma mkAlt_lang2 : forall a b w, lang2 (mkAlt a b) w <-> lang2 a w \/ lang2 b w.
Proof.
  induction a; intros b w; simpl; try apply alt_insert_lang2.
  - rewrite lang2_Emp. tauto.
  - rewrite alt_insert_lang2, IHa2, lang2_Alt. tauto.
Qed.

Lemma mkSeq_cases a b :
  (a = Emp \/ b = Emp) /\ mkSeq a b = Emp \/ a = Eps /\ mkSeq a b = b \/ b = Eps /\ mkSeq a b = a \/
  mkSeq a b = Seq a b.
Proof. destruct a; auto; destruct b; auto 6. Qed.

Lemma mkSeq_lang2 a b w : lang2 (mkSeq a b) w <-> seqL2 a b w.
Proof.
  destruct (mkSeq_cases a b) as [[[-> | ->] ->]|[[-> ->]|[[-> ->]| ->]]].
  - rewrite seqL2_Emp_l. apply lang2_Emp.
  - rewrite seqL2_Emp_r. apply lang2_Emp.
  - symmetry. apply seqL2_Eps_l.
  - symmetry. apply seqL2_Eps_r.
  - apply lang2_Seq.
Qed.

Lemma cat_lang2 : forall a b w, lang2 (cat a b) w <-> seqL2 a b w.
Proof.
  induction a; intros b w; cbn [cat]; try apply mkSeq_lang2.
  - rewrite seqL2_Emp_l. apply lang2_Emp.
  - symmetry. apply seqL2_Eps_l.
  - rewrite mkAlt_lang2, IHa1, IHa2, seqL2_alt. reflexivity.
  - rewrite mkSeq_lang2, seqL2_assoc. apply seqL2_iff; [reflexivity|apply IHa2].
Qed.

Lemma mkStar_lang2 a w : lang2 (mkStar a) w <-> lang2 (Star a) w.
Proof.
  destruct a; simpl; try reflexivity.
  - rewrite lang2_Eps. split; [intros ->; constructor|].
    apply star2_nil_only. intros v H. inversion H.
  - rewrite lang2_Eps. split; [intros ->; constructor|].
    apply star2_nil_only. intros v H. inversion H. reflexivity.
  - split; [|apply star2_star]. intros H. rewrite <- (app_nil_r w). apply l2_star1; [exact H|constructor].
Qed.

Lemma mkSym_lang2 lo hi w : lang2 (mkSym lo hi) w <-> lang2 (Sym lo hi) w.
Proof.
  unfold mkSym. destruct (hi <? lo) eqn:E; [|reflexivity].
  apply Z.ltb_lt in E. rewrite lang2_Emp, lang2_Sym. split; [tauto|intros (c & d & _ & H); lia].
Qed.

Lemma nullable_lang2 : forall r, nullable r = true <-> lang2 r [].
Proof.
  induction r; simpl.
  - rewrite lang2_Emp. split; [discriminate|tauto].
  - rewrite lang2_Eps. tauto.
  - rewrite lang2_Sym. split; [discriminate|intros (c & d & H & _); discriminate].
  - rewrite lang2_Any. split; [discriminate|intros (c & H); discriminate].
  - rewrite orb_true_iff, lang2_Alt, IHr1, IHr2. tauto.
  - rewrite andb_true_iff, lang2_Seq, IHr1, IHr2. split.
    + intros [H1 H2]. exists [], []. auto.
    + intros (w1 & w2 & E & H1 & H2). symmetry in E. apply app_eq_nil in E. destruct E; subst. auto.
  - split; [intros _; constructor|reflexivity].
Qed.

Theorem deriv_lang2 dot c : forall r w, lang2 (deriv dot r c) w <-> lang2 r ((c, dot) :: w).
Proof.
  induction r; intros w; simpl in *.
  - rewrite !lang2_Emp. tauto.
  - rewrite lang2_Emp, lang2_Eps. split; [tauto|discriminate].
  - rewrite sym2_cons. destruct (in_rng lo hi c); [rewrite lang2_Eps|rewrite lang2_Emp].
    + split; [auto|intros [_ H]; exact H].
    + split; [tauto|intros [H _]; discriminate].
  - rewrite any2_cons. destruct dot; [rewrite lang2_Eps|rewrite lang2_Emp].
    + split; [auto|intros [_ H]; exact H].
    + split; [tauto|intros [H _]; discriminate].
  - rewrite mkAlt_lang2, lang2_Alt, IHr1, IHr2; tauto.
  - pose proof (seqL2_iff (fun v => lang2 r1 ((c, dot) :: v)) (lang2 r2) _ r2 w (IHr1) (fun v => iff_refl _)) as Hcat.
    rewrite seq2_cons, <- nullable_lang2, <- Hcat. destruct (nullable r1).
    + rewrite mkAlt_lang2, cat_lang2, IHr2. tauto.
    + rewrite cat_lang2. split; [auto|intros [H|[H _]]; [exact H|discriminate]].
  - rewrite cat_lang2, star2_cons. apply seqL2_iff; [apply IHr|reflexivity].
Qed.

Print Assumptions deriv_lang2.
