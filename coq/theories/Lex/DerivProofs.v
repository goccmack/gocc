(** Property C01, part (B): the derivative matcher of Deriv.v against the denotational
    semantics [matches] of Pattern.v.

    - For dot-free grammars (Brzozowski): after reading the word [w], component [i] of the state
      is nullable iff [w] matches pattern [i], and is live (not [Emp]) iff some extension of [w]
      matches pattern [i].  Hence [verdict] is the priority winner among the patterns matching
      [w], and [live] says that [w] is a prefix of some lexeme.
    - With dots: the operational clause of the contextual dot. *)
From Coq Require Import List ZArith Lia Bool Setoid.
From Gocc Require Import Base.Utf8 Lex.Scan Lex.ScanProofs Lex.Pattern Lex.Deriv Lex.LexLang.
Import ListNotations.
Open Scope Z_scope.

(** ** Language of a residual ([Any] denotes nothing here: dot-free reading) *)
Inductive lang : re -> list Z -> Prop :=
| l_eps : lang Eps []
| l_sym lo hi c : lo <= c <= hi -> lang (Sym lo hi) [c]
| l_altl a b w : lang a w -> lang (Alt a b) w
| l_altr a b w : lang b w -> lang (Alt a b) w
| l_seq a b w1 w2 : lang a w1 -> lang b w2 -> lang (Seq a b) (w1 ++ w2)
| l_star0 a : lang (Star a) []
| l_star1 a w1 w2 : lang a w1 -> lang (Star a) w2 -> lang (Star a) (w1 ++ w2).

Lemma lang_Emp w : lang Emp w <-> False.
Proof. split; [intros H; inversion H|tauto]. Qed.
Lemma lang_Any w : lang Any w <-> False.
Proof. split; [intros H; inversion H|tauto]. Qed.
Lemma lang_Eps w : lang Eps w <-> w = [].
Proof. split; [intros H; inversion H; reflexivity|intros ->; constructor]. Qed.
Lemma lang_Sym lo hi w : lang (Sym lo hi) w <-> exists c, w = [c] /\ lo <= c <= hi.
Proof.
  split; [intros H; inversion H; subst; eauto|intros (c & -> & H); constructor; exact H].
Qed.
Lemma lang_Seq a b w : lang (Seq a b) w <-> exists w1 w2, w = w1 ++ w2 /\ lang a w1 /\ lang b w2.
Proof.
  split; [intros H; inversion H; subst; exists w1, w2; auto|intros (w1 & w2 & -> & H1 & H2); constructor; auto].
Qed.

(** [lang] is [lang2] on the words all of whose letters carry the flag [false]: an [Any] leaf
    needs a [true] one. *)
Definition flag (d : bool) : list Z -> list letter := map (fun c => (c, d)).

Lemma lang_lang2 r w : lang r w <-> lang2 r (flag false w).
Proof.
  unfold flag. split.
  - induction 1; simpl; rewrite ?map_app; constructor; assumption.
  - intros H. remember (map _ w) as u eqn:E. revert w E.
    induction H; intros u E.
    + destruct u; [constructor|discriminate].
    + destruct u as [|x [|y u]]; inversion E; subst. constructor. assumption.
    + destruct u as [|x [|y u]]; discriminate.
    + apply l_altl. auto.
    + apply l_altr. auto.
    + symmetry in E. apply map_eq_app in E. destruct E as (u1 & u2 & -> & <- & <-). constructor; auto.
    + destruct u; [constructor|discriminate].
    + symmetry in E. apply map_eq_app in E. destruct E as (u1 & u2 & -> & <- & <-). constructor; auto.
Qed.

Lemma mkAlt_lang a b w : lang (mkAlt a b) w <-> lang a w \/ lang b w.
Proof. rewrite !lang_lang2. apply mkAlt_lang2. Qed.
Lemma mkSeq_lang a b w : lang (mkSeq a b) w <-> lang (Seq a b) w.
Proof. rewrite !lang_lang2, lang2_Seq. apply mkSeq_lang2. Qed.
Lemma mkStar_lang a w : lang (mkStar a) w <-> lang (Star a) w.
Proof. rewrite !lang_lang2. apply mkStar_lang2. Qed.
Lemma mkSym_lang lo hi w : lang (mkSym lo hi) w <-> lang (Sym lo hi) w.
Proof. rewrite !lang_lang2. apply mkSym_lang2. Qed.
Lemma nullable_lang r : nullable r = true <-> lang r [].
Proof. rewrite lang_lang2. apply nullable_lang2. Qed.
Lemma deriv_lang c r w : lang (deriv false r c) w <-> lang r (c :: w).
Proof. rewrite !lang_lang2. apply deriv_lang2. Qed.

(** ** Normal form: a dead residual is syntactically [Emp] *)
(** [nz dots r]: no [Emp] inside, no empty range, and no [Any] unless [dots] *)
Fixpoint nz (dots : bool) (r : re) : Prop :=
  match r with
  | Emp => False
  | Eps => True
  | Sym lo hi => lo <= hi
  | Any => dots = true
  | Alt a b | Seq a b => nz dots a /\ nz dots b
  | Star a => nz dots a
  end.
Definition wfz (dots : bool) (r : re) : Prop := r = Emp \/ nz dots r.

Section NF.
Variable dots : bool.

Lemma alt_cmp_nz x b : nz dots x -> nz dots b ->
  nz dots (match re_cmp x b with Eq => b | Lt => Alt x b | Gt => Alt b x end).
Proof. intros Hx Hb. destruct (re_cmp x b); simpl; auto. Qed.

Lemma alt_insert_nz x : nz dots x -> forall b, wfz dots b -> nz dots (alt_insert x b).
Proof.
  intros Hx. induction b; intros [E|Hb]; try discriminate; simpl; try (apply alt_cmp_nz; assumption).
  - exact Hx.
  - contradiction.
  - destruct Hb as [H1 H2]. destruct (re_cmp x b1); simpl; auto.
    split; [exact H1|]. apply IHb2. right. exact H2.
Qed.

Lemma mkAlt_nz : forall a, nz dots a -> forall b, wfz dots b -> nz dots (mkAlt a b).
Proof.
  induction a; intros Ha b Hb; simpl in *; try contradiction;
    try (apply alt_insert_nz; simpl; auto).
  - exact (proj1 Ha).
  - right. apply IHa2; tauto.
Qed.

Lemma mkAlt_wfz a b : wfz dots a -> wfz dots b -> wfz dots (mkAlt a b).
Proof. intros [->|Ha] Hb; [exact Hb|right; apply mkAlt_nz; auto]. Qed.

Lemma nz_not_emp r : nz dots r -> r <> Emp.
Proof. intros H ->. exact H. Qed.

Lemma mkAlt_emp a b : wfz dots a -> wfz dots b -> (mkAlt a b = Emp <-> a = Emp /\ b = Emp).
Proof.
  intros [->|Ha] Hb; [simpl; tauto|]. split.
  - intros E. destruct (nz_not_emp _ (mkAlt_nz a Ha b Hb) E).
  - intros [E _]. destruct (nz_not_emp _ Ha E).
Qed.

Lemma mkSeq_nz a b : nz dots a -> nz dots b -> nz dots (mkSeq a b).
Proof.
  intros Ha Hb. destruct (mkSeq_cases a b) as [[[-> | ->] _]|[[_ ->]|[[_ ->]| ->]]];
    try contradiction; try assumption. split; assumption.
Qed.

Lemma mkSeq_wfz a b : wfz dots a -> wfz dots b -> wfz dots (mkSeq a b).
Proof.
  intros [->|Ha] [->|Hb]; [left; reflexivity..| |right; apply mkSeq_nz; assumption].
  left. destruct a; reflexivity.
Qed.

Lemma cat_nz : forall a b, nz dots a -> nz dots b -> nz dots (cat a b).
Proof.
  induction a; intros b Ha Hb; cbn [cat]; simpl in Ha; try contradiction; try (apply mkSeq_nz; simpl; auto).
  - exact Hb.
  - apply mkAlt_nz; [apply IHa1; tauto|right; apply IHa2; tauto].
  - exact (proj1 Ha).
  - apply IHa2; tauto.
Qed.

Lemma cat_wfz a b : wfz dots a -> nz dots b -> wfz dots (cat a b).
Proof. intros [->|Ha] Hb; [left; reflexivity|right; apply cat_nz; assumption]. Qed.

Lemma cat_emp a b : wfz dots a -> nz dots b -> (cat a b = Emp <-> a = Emp).
Proof.
  intros [->|Ha] Hb; [simpl; tauto|]. split; intros E.
  - destruct (nz_not_emp _ (cat_nz a b Ha Hb) E).
  - destruct (nz_not_emp _ Ha E).
Qed.

Lemma mkStar_wfz a : wfz dots a -> wfz dots (mkStar a).
Proof. intros [->|Ha]; right; [exact I|]. destruct a; simpl in *; auto. Qed.

Lemma mkSym_wfz lo hi : wfz dots (mkSym lo hi).
Proof. unfold mkSym. destruct (hi <? lo) eqn:E; [left; reflexivity|right]. apply Z.ltb_ge in E. exact E. Qed.

Lemma deriv_nz dot c : forall r, nz dots r -> wfz dots (deriv dot r c).
Proof.
  induction r; intros H; simpl in *.
  - contradiction.
  - left. reflexivity.
  - destruct (in_rng lo hi c); [right; exact I|left; reflexivity].
  - destruct dot; [right; exact I|left; reflexivity].
  - apply mkAlt_wfz; tauto.
  - destruct H as [H1 H2]. destruct (nullable r1).
    + apply mkAlt_wfz; [apply cat_wfz; [auto|exact H2]|auto].
    + apply cat_wfz; [auto|exact H2].
  - apply cat_wfz; [auto|exact H].
Qed.

Lemma deriv_wfz dot c r : wfz dots r -> wfz dots (deriv dot r c).
Proof. intros [->|H]; [left; reflexivity|apply deriv_nz; exact H]. Qed.

Lemma seqs_wfz l : Forall (wfz dots) l -> wfz dots (seqs l).
Proof. induction 1; simpl; [right; exact I|apply mkSeq_wfz; assumption]. Qed.
Lemma alts_wfz l : Forall (wfz dots) l -> wfz dots (alts l).
Proof. induction 1; simpl; [left; reflexivity|apply mkAlt_wfz; assumption]. Qed.

Lemma re_of_term_wfz : forall t, dots = true \/ dotfree_t t = true -> wfz dots (re_of_term t).
Proof.
  assert (Hpat : forall p, Forall (Forall (fun t => dots = true \/ dotfree_t t = true -> wfz dots (re_of_term t))) p ->
            dots = true \/ forallb (forallb dotfree_t) p = true ->
            wfz dots (alts (map (fun a => seqs (map re_of_term a)) p))).
  { intros p HF Hd. apply alts_wfz, Forall_map, Forall_forall. intros a Ha.
    apply seqs_wfz, Forall_map, Forall_forall. intros t Ht.
    rewrite Forall_forall in HF. specialize (HF a Ha). rewrite Forall_forall in HF. apply (HF t Ht).
    destruct Hd as [Hd|Hd]; [left; exact Hd|right].
    rewrite forallb_forall in Hd. specialize (Hd a Ha). rewrite forallb_forall in Hd. exact (Hd t Ht). }
  induction t using term_ind'; intros Hd; cbn [re_of_term].
  - right. simpl. lia.
  - apply mkSym_wfz.
  - right. simpl. destruct Hd as [Hd|Hd]; [exact Hd|discriminate].
  - left. reflexivity.
  - apply mkAlt_wfz; [right; exact I|]. apply Hpat; assumption.
  - apply mkStar_wfz. apply Hpat; assumption.
  - apply Hpat; assumption.
Qed.

(** a pattern is converted like the group around it *)
Lemma re_of_pattern_wfz p : dots = true \/ dotfree p = true -> wfz dots (re_of_pattern p).
Proof. exact (re_of_term_wfz (Grp p)). Qed.

Lemma nz_inhabited : forall r, nz dots r -> exists w, lang2 r (flag dots w).
Proof.
  unfold flag. induction r; simpl; intros H.
  - contradiction.
  - exists []. constructor.
  - exists [lo]. constructor. lia.
  - exists [0]. simpl. rewrite H. constructor.
  - destruct (IHr1 (proj1 H)) as [w Hw]. exists w. apply l2_altl. exact Hw.
  - destruct (IHr1 (proj1 H)) as [w1 H1]. destruct (IHr2 (proj2 H)) as [w2 H2].
    exists (w1 ++ w2). rewrite map_app. constructor; assumption.
  - exists []. constructor.
Qed.

Lemma wfz_live r : wfz dots r -> is_emp r = false -> exists w, lang2 r (flag dots w).
Proof. intros [->|H] E; [discriminate|apply nz_inhabited; exact H]. Qed.
End NF.

Lemma dstep_wfz dots S c : Forall (wfz dots) S -> Forall (wfz dots) (dstep S c).
Proof. intros H. apply Forall_map. eapply Forall_impl; [|exact H]. intros r. apply deriv_wfz. Qed.

Lemma dsteps_wfz dots : forall w S, Forall (wfz dots) S -> Forall (wfz dots) (dsteps S w).
Proof.
  induction w as [|c w IH]; intros S H; simpl; [exact H|]. apply IH, dstep_wfz, H.
Qed.

Lemma lang2_live r w : lang2 r w -> is_emp r = false.
Proof. destruct 1; reflexivity. Qed.

Lemma live_iff_inhabited2 r : wfz true r -> (is_emp r = false <-> exists w, lang2 r w).
Proof.
  intros H. split.
  - intros E. destruct (wfz_live true r H E) as [w Hw]. eauto.
  - intros [w Hw]. exact (lang2_live r w Hw).
Qed.

Lemma live_iff_inhabited r : wfz false r -> (is_emp r = false <-> exists w, lang r w).
Proof.
  intros H. split.
  - intros E. destruct (wfz_live false r H E) as [w Hw]. exists w. apply lang_lang2. exact Hw.
  - intros [w Hw]. apply lang_lang2 in Hw. exact (lang2_live _ _ Hw).
Qed.

Lemma seqs_lang_cons r l w : lang (seqs (r :: l)) w <-> exists w1 w2, w = w1 ++ w2 /\ lang r w1 /\ lang (seqs l) w2.
Proof. simpl. rewrite mkSeq_lang. apply lang_Seq. Qed.
Lemma alts_lang_cons r l w : lang (alts (r :: l)) w <-> lang r w \/ lang (alts l) w.
Proof. simpl. apply mkAlt_lang. Qed.

Local Notation term_ok t := (forall w, lang (re_of_term t) w <-> matches_term t w).

Lemma alt_lang : forall a, Forall (fun t => term_ok t) a ->
  forall w, lang (seqs (map re_of_term a)) w <-> matches_alt a w.
Proof.
  induction 1 as [|t a Ht Ha IH]; intros w.
  - simpl. rewrite lang_Eps. split; [intros ->; constructor|intros H; inversion H; reflexivity].
  - cbn [map]. rewrite seqs_lang_cons. split.
    + intros (w1 & w2 & -> & H1 & H2). constructor; [apply Ht; exact H1|apply IH; exact H2].
    + intros H. inversion H; subst. exists w1, w2. split; [reflexivity|].
      split; [apply Ht; assumption|apply IH; assumption].
Qed.

Lemma pat_lang : forall p, Forall (Forall (fun t => term_ok t)) p ->
  forall w, lang (alts (map (fun a => seqs (map re_of_term a)) p)) w <-> matches p w.
Proof.
  induction 1 as [|a p Ha Hp IH]; intros w.
  - simpl. rewrite lang_Emp. split; [tauto|]. intros H. inversion H as [? a ? Hin Hm]; subst. destruct Hin.
  - cbn [map]. rewrite alts_lang_cons, IH, (alt_lang a Ha). split.
    + intros [H|H].
      * econstructor; [left; reflexivity|exact H].
      * inversion H; subst. econstructor; [right; eassumption|assumption].
    + intros H. inversion H as [? a' ? Hin Hm]; subst. destruct Hin as [<-|Hin]; [left; assumption|].
      right. econstructor; eassumption.
Qed.

Lemma term_lang : forall t, term_ok t.
Proof.
  induction t using term_ind'; intros w; cbn [re_of_term].
  - rewrite lang_Sym. split.
    + intros (c' & -> & H). assert (c' = c) by lia. subst. constructor.
    + intros H. inversion H; subst. exists c. split; [reflexivity|lia].
  - rewrite mkSym_lang, lang_Sym. split.
    + intros (c & -> & H). constructor. exact H.
    + intros H. inversion H; subst. eauto.
  - rewrite lang_Any. split; [tauto|intros H; inversion H].
  - rewrite lang_Emp. split; [tauto|intros H; inversion H].
  - rewrite mkAlt_lang, lang_Eps, (pat_lang p H). split.
    + intros [->|Hm]; [apply mt_opt0|apply mt_opt1; exact Hm].
    + intros Hm. inversion Hm; subst; auto.
  - rewrite mkStar_lang. pose proof (pat_lang p H) as Hp. split.
    + intros Hs. remember (Star _) as r eqn:Er in Hs. induction Hs; inversion Er; subst.
      * apply mt_rep0.
      * apply mt_rep1; [apply Hp; assumption|apply IHHs2; reflexivity].
    + intros Hm. remember (Rep p) as t eqn:Et. induction Hm; inversion Et; subst.
      * constructor.
      * apply l_star1; [apply Hp; assumption|apply IHHm; reflexivity].
  - rewrite (pat_lang p H). split.
    + intros Hm. constructor. exact Hm.
    + intros Hm. inversion Hm; subst. assumption.
Qed.

Theorem pattern_lang p w : lang (re_of_pattern p) w <-> matches p w.
Proof.
  change (re_of_pattern p) with (re_of_term (Grp p)). rewrite term_lang.
  split; [intros H; inversion H; assumption|apply mt_grp].
Qed.

Lemma deriv_Sym dot lo hi c : deriv dot (Sym lo hi) c = if in_rng lo hi c then Eps else Emp.
Proof. reflexivity. Qed.
Lemma deriv_Any dot c : deriv dot Any c = if dot then Eps else Emp.
Proof. reflexivity. Qed.

Lemma deriv_no_firstany c : forall r, firstany r = false -> deriv true r c = deriv false r c.
Proof.
  induction r; simpl; intros H; try reflexivity; try discriminate.
  - apply orb_false_iff in H. destruct H. rewrite IHr1, IHr2; auto.
  - destruct (nullable r1).
    + apply orb_false_iff in H. destruct H. rewrite IHr1, IHr2; auto.
    + rewrite IHr1; auto.
  - rewrite IHr; auto.
Qed.

Lemma nz_firstany : forall r, nz false r -> firstany r = false.
Proof.
  induction r; simpl; intros H; try reflexivity; try discriminate.
  - rewrite IHr1, IHr2; tauto.
  - rewrite IHr1, IHr2 by tauto. destruct (nullable r1); reflexivity.
  - auto.
Qed.

Lemma deriv_dotfree dot c r : wfz false r -> deriv dot r c = deriv false r c.
Proof.
  intros [->|H]; [reflexivity|]. destruct dot; [|reflexivity]. apply deriv_no_firstany, nz_firstany, H.
Qed.

(** [Resid w r0 r]: [r] is a normal dot-free residual denoting the words [v] with [w ++ v] in [r0] *)
Definition Resid (w : list Z) (r0 r : re) : Prop :=
  wfz false r /\ forall v, lang r v <-> lang r0 (w ++ v).

Lemma dstep_resid u S0 S c : Forall2 (Resid u) S0 S -> Forall2 (Resid (u ++ [c])) S0 (dstep S c).
Proof.
  unfold dstep. generalize (negb (explicit S c)) as dot. intros dot H.
  induction H as [|r0 r S0 S [Hw Hl] HF IH]; simpl; constructor; auto.
  split; [apply deriv_wfz; exact Hw|]. intros v.
  rewrite (deriv_dotfree dot c r Hw), deriv_lang, Hl, <- app_assoc. reflexivity.
Qed.

Lemma dsteps_resid : forall w u S0 S, Forall2 (Resid u) S0 S -> Forall2 (Resid (u ++ w)) S0 (dsteps S w).
Proof.
  induction w as [|c w IH]; intros u S0 S H; simpl.
  - rewrite app_nil_r. exact H.
  - replace (u ++ c :: w) with ((u ++ [c]) ++ w) by (rewrite <- app_assoc; reflexivity).
    apply IH. apply dstep_resid. exact H.
Qed.

Lemma resid_init S0 : Forall (wfz false) S0 -> Forall2 (Resid []) S0 S0.
Proof. induction 1; constructor; auto. split; [assumption|]. intros v. reflexivity. Qed.

Definition dstate0 (kps : list (tkind * pattern)) : dstate := map (fun kp => re_of_pattern (snd kp)) kps.

Lemma dstate0_wfz kps : Forall (wfz true) (dstate0 kps).
Proof.
  apply Forall_map, Forall_forall. intros kp _. apply re_of_pattern_wfz. left. reflexivity.
Qed.

Lemma reached_wfz kps w : Forall (wfz true) (dsteps (dstate0 kps) w).
Proof. apply dsteps_wfz, dstate0_wfz. Qed.

(** Brzozowski correctness, per component *)
Theorem deriv_correct kps w :
  Forall (fun kp => dotfree (snd kp) = true) kps ->
  Forall2 (fun kp r => (nullable r = true <-> matches (snd kp) w) /\
                       (is_emp r = false <-> exists s, matches (snd kp) (w ++ s)))
          kps (dsteps (dstate0 kps) w).
Proof.
  intros Hdf.
  assert (H0 : Forall (wfz false) (dstate0 kps)).
  { apply Forall_map. eapply Forall_impl; [|exact Hdf]. intros kp Hkp. apply re_of_pattern_wfz. right. exact Hkp. }
  pose proof (dsteps_resid w [] _ _ (resid_init _ H0)) as H. simpl in H.
  unfold dstate0 in H at 1. apply Forall2_map_l in H.
  eapply Forall2_impl; [|exact H]. intros kp r [Hw Hl]. split.
  - rewrite nullable_lang, Hl, app_nil_r. apply pattern_lang.
  - rewrite (live_iff_inhabited r Hw). split.
    + intros [v Hv]. exists v. apply pattern_lang. apply Hl. exact Hv.
    + intros [v Hv]. exists v. apply Hl. apply pattern_lang. exact Hv.
Qed.

Lemma live_spec S : live S = true <-> exists r, In r S /\ is_emp r = false.
Proof.
  unfold live. rewrite existsb_exists.
  split; intros (r & Hr & H); exists r; (split; [exact Hr|]); apply negb_true_iff; exact H.
Qed.

(** [live] = the word read is a prefix of some lexeme *)
Theorem live_prefix kps w :
  Forall (fun kp => dotfree (snd kp) = true) kps ->
  (live (dsteps (dstate0 kps) w) = true <-> exists kp s, In kp kps /\ matches (snd kp) (w ++ s)).
Proof.
  intros Hdf. pose proof (deriv_correct kps w Hdf) as H. clear Hdf. rewrite live_spec.
  induction H as [|kp r kps' S' [_ Hl] HF IH].
  - split; [intros (r & [] & _)|intros (kp & s & [] & _)].
  - split.
    + intros (r' & [<-|Hin] & Hr').
      * apply Hl in Hr'. destruct Hr' as [s Hs]. exists kp, s. split; [left; reflexivity|exact Hs].
      * destruct IH as [IH _]. destruct IH as (kp' & s & Hk & Hs); [eauto|]. exists kp', s. split; [right; exact Hk|exact Hs].
    + intros (kp' & s & [<-|Hk] & Hs).
      * exists r. split; [left; reflexivity|]. apply Hl. eauto.
      * destruct IH as [_ IH]. destruct IH as (r' & Hin & Hr'); [eauto|]. exists r'. split; [right; exact Hin|exact Hr'].
Qed.

Section Verdict.
Variable Q : pattern -> Prop.    (* "matches the text read" *)

Definition NullQ (l : list (tkind * pattern)) (S : dstate) : Prop :=
  Forall2 (fun kp r => nullable r = true <-> Q (snd kp)) l S.

(** [first_match f l o]: [o] is the kind of the first definition of [l], in declaration order,
    that matches and whose kind satisfies [f]; [None] if there is none *)
Definition first_match (f : tkind -> bool) (l : list (tkind * pattern)) (o : option tkind) : Prop :=
  match o with
  | Some k => exists i kp, nth_error l i = Some kp /\ k = fst kp /\ Q (snd kp) /\ f (fst kp) = true /\
                forall j kp', (j < i)%nat -> nth_error l j = Some kp' -> Q (snd kp') -> f (fst kp') = false
  | None => forall i kp, nth_error l i = Some kp -> Q (snd kp) -> f (fst kp) = false
  end.

Lemma first_match_skip f kp l o :
  (Q (snd kp) -> f (fst kp) = false) -> first_match f l o -> first_match f (kp :: l) o.
Proof.
  intros Hkp. destruct o as [k|]; simpl.
  - intros (i & kp1 & Hn & -> & Hq & Hf & Hmin). exists (S i), kp1. repeat split; auto.
    intros [|j] kp' Hj Hn' Hq'; [injection Hn' as <-; auto|apply (Hmin j kp'); auto; lia].
  - intros H [|i] kp1 Hn Hq; [injection Hn as <-; auto|exact (H i kp1 Hn Hq)].
Qed.

(** [nullable] decides [Q] on the components, so no decidability of [Q] is needed *)
Lemma find_candidates f l S : NullQ l S -> first_match f l (find f (candidates (map fst l) S)).
Proof.
  induction 1 as [|kp r l S Hr HS IH]; cbn [map candidates].
  - intros [|i] kp; discriminate.
  - destruct (nullable r) eqn:En; [cbn [find]; destruct (f (fst kp)) eqn:Ef|].
    + exists 0%nat, kp. repeat split; auto; [apply Hr; reflexivity|intros j kp' Hj; lia].
    + apply first_match_skip; auto.
    + apply first_match_skip; [|exact IH]. intros Hq. apply Hr in Hq. congruence.
Qed.

Variable kps : list (tkind * pattern).
Definition matching (i : nat) (kp : tkind * pattern) : Prop := nth_error kps i = Some kp /\ Q (snd kp).

(** the accept code the property prescribes *)
Inductive Winner : Z -> Prop :=
| W_none : (forall i kp, ~ matching i kp) -> Winner INVALID
| W_strlit i kp : matching i kp -> is_strlit (fst kp) = true ->
    (forall j kp', (j < i)%nat -> matching j kp' -> is_strlit (fst kp') = false) ->
    Winner (code (fst kp))
| W_first i kp : matching i kp ->
    (forall j kp', matching j kp' -> is_strlit (fst kp') = false) ->
    (forall j kp', (j < i)%nat -> ~ matching j kp') ->
    Winner (code (fst kp)).

Lemma Winner_unique c1 c2 : Winner c1 -> Winner c2 -> c1 = c2.
Proof.
  intros H1 H2. destruct H1 as [Hn|i kp Hm Hs Hmin|i kp Hm Hns Hmin];
    destruct H2 as [Hn'|i' kp' Hm' Hs' Hmin'|i' kp' Hm' Hns' Hmin']; try reflexivity;
    try (exfalso; eapply Hn; eassumption); try (exfalso; eapply Hn'; eassumption).
  - destruct (Nat.lt_trichotomy i i') as [L|[E|L]].
    + specialize (Hmin' _ _ L Hm). congruence.
    + subst. destruct Hm as [E1 _], Hm' as [E2 _]. congruence.
    + specialize (Hmin _ _ L Hm'). congruence.
  - specialize (Hns' _ _ Hm). congruence.
  - specialize (Hns _ _ Hm'). congruence.
  - destruct (Nat.lt_trichotomy i i') as [L|[E|L]].
    + exfalso. exact (Hmin' _ _ L Hm).
    + subst. destruct Hm as [E1 _], Hm' as [E2 _]. congruence.
    + exfalso. exact (Hmin _ _ L Hm').
Qed.

Theorem verdict_Winner S (HS : NullQ kps S) : Winner (verdict (map fst kps) S).
Proof.
  unfold verdict.
  pose proof (find_candidates is_strlit kps S HS) as Hs.
  pose proof (find_candidates (fun _ => true) kps S HS) as Hf.
  destruct (find is_strlit _) as [k|]; simpl in Hs.
  - destruct Hs as (i & kp & Hn & -> & Hq & Hs & Hmin). apply (W_strlit i kp); [split; assumption|exact Hs|].
    intros j kp' Hj [Hn' Hq']. exact (Hmin j kp' Hj Hn' Hq').
  - destruct (candidates (map fst kps) S) as [|k tl]; simpl in Hf.
    + apply W_none. intros i kp [Hn Hq]. discriminate (Hf i kp Hn Hq).
    + destruct Hf as (i & kp & Hn & -> & Hq & _ & Hmin). apply (W_first i kp); [split; assumption| |].
      * intros j kp' [Hn' Hq']. exact (Hs j kp' Hn' Hq').
      * intros j kp' Hj [Hn' Hq']. discriminate (Hmin j kp' Hj Hn' Hq').
Qed.
End Verdict.

Lemma candidates_ext : forall ks S S', Forall2 (fun r r' => nullable r = nullable r') S S' ->
  candidates ks S = candidates ks S'.
Proof.
  induction ks as [|k ks IH]; intros S S' H; [reflexivity|].
  destruct H as [|r r' S S' Hr HS]; [reflexivity|]. simpl. rewrite Hr, (IH _ _ HS). reflexivity.
Qed.

(** For a dot-free grammar the accept code of the state reached on [w] is the priority
    winner among the definitions whose pattern matches [w] (and it is the only such code) *)
Theorem verdict_correct kps w :
  Forall (fun kp => dotfree (snd kp) = true) kps ->
  Winner (fun p => matches p w) kps (verdict (map fst kps) (dsteps (dstate0 kps) w)).
Proof.
  intros Hdf. apply verdict_Winner.
  eapply Forall2_impl; [|exact (deriv_correct kps w Hdf)]. intros kp r [H _]. exact H.
Qed.

Lemma dinit_expand g kps : expand g = Some kps -> dinit g = Some (map fst kps, dstate0 kps).
Proof. unfold dinit. intros ->. reflexivity. Qed.

Lemma expl_existsb c : forall r, expl r c = existsb (fun lh => in_rng (fst lh) (snd lh) c) (firstsyms r).
Proof.
  induction r; simpl; rewrite ?orb_false_r; try reflexivity.
  - rewrite existsb_app. congruence.
  - destruct (nullable r1); [rewrite existsb_app|]; congruence.
  - exact IHr.
Qed.

Theorem explicit_spec S c : explicit S c = true <->
  exists r lo hi, In r S /\ In (lo, hi) (firstsyms r) /\ lo <= c <= hi.
Proof.
  unfold explicit. rewrite existsb_exists. split.
  - intros (r & Hin & H). rewrite expl_existsb in H. apply existsb_exists in H.
    destruct H as ([lo hi] & H1 & H2). apply in_rng_iff in H2. exists r, lo, hi. auto.
  - intros (r & lo & hi & Hin & H1 & H2). exists r. split; [exact Hin|].
    rewrite expl_existsb. apply existsb_exists. exists (lo, hi). split; [exact H1|apply in_rng_iff, H2].
Qed.

(** the step derives every component with one and the same flag: dots move iff no explicit class has the rune *)
Theorem dstep_spec S c : dstep S c = map (fun r => deriv (negb (explicit S c)) r c) S.
Proof. reflexivity. Qed.

Fixpoint moves (dot : bool) (r : re) (c : Z) : bool :=   (* does some first-position leaf move *)
  match r with
  | Sym lo hi => in_rng lo hi c
  | Any => dot
  | Alt a b => moves dot a c || moves dot b c
  | Seq a b => if nullable a then moves dot a c || moves dot b c else moves dot a c
  | Star a => moves dot a c
  | _ => false
  end.

Lemma moves_spec dot r c : moves dot r c = expl r c || (dot && firstany r).
Proof.
  assert (Hor : forall e1 e2 a1 a2, (e1 || dot && a1) || (e2 || dot && a2) = (e1 || e2) || dot && (a1 || a2)).
  { intros. destruct e1, e2, dot, a1; reflexivity. }
  induction r; simpl; rewrite ?andb_false_r, ?orb_false_r, ?andb_true_r; try reflexivity.
  - rewrite IHr1, IHr2. apply Hor.
  - destruct (nullable r1); [|exact IHr1]. rewrite IHr1, IHr2. apply Hor.
  - exact IHr.
Qed.

Lemma deriv_emp dots dot c : forall r, nz dots r -> (deriv dot r c = Emp <-> moves dot r c = false).
Proof.
  induction r; intros Hn; simpl in *.
  - contradiction.
  - split; reflexivity.
  - destruct (in_rng lo hi c); split; congruence.
  - destruct dot; split; congruence.
  - destruct Hn as [H1 H2]. rewrite (mkAlt_emp dots) by (apply deriv_nz; assumption).
    rewrite orb_false_iff, IHr1, IHr2 by assumption. reflexivity.
  - destruct Hn as [H1 H2]. destruct (nullable r1).
    + rewrite (mkAlt_emp dots) by (try apply cat_wfz; try apply deriv_nz; assumption).
      rewrite (cat_emp dots) by (try apply deriv_nz; assumption).
      rewrite orb_false_iff, IHr1, IHr2 by assumption. reflexivity.
    + rewrite (cat_emp dots) by (try apply deriv_nz; assumption). apply IHr1. assumption.
  - rewrite (cat_emp dots) by (try apply deriv_nz; simpl; assumption). apply IHr. assumption.
Qed.

Lemma is_emp_iff r : is_emp r = true <-> r = Emp.
Proof. destruct r; simpl; split; congruence. Qed.

Lemma deriv_live dots dot c r : wfz dots r ->
  (is_emp (deriv dot r c) = false <-> expl r c = true \/ (dot = true /\ firstany r = true)).
Proof.
  intros [->|Hr].
  - split; [discriminate|intros [H|[_ H]]; discriminate].
  - rewrite <- (not_true_iff_false (is_emp _)), is_emp_iff, (deriv_emp dots _ c r Hr), not_false_iff_true, moves_spec.
    rewrite orb_true_iff, andb_true_iff. reflexivity.
Qed.

(** The operational clause of the contextual dot.  In a state of normal residuals, on rune [c]:
    component [r] survives iff one of its first-position leaves moves, where a [Sym] leaf moves iff
    it contains [c] (whatever the dots do) and an [Any] leaf moves iff NO [Sym] leaf in first
    position of ANY component of the state contains [c].
    Components that are already dead are allowed ([wfz]): these are the states [dsteps] reaches
    ([reached_wfz]). *)
Theorem dstep_survivors dots S c : Forall (wfz dots) S ->
  Forall2 (fun r r' => is_emp r' = false <->
             expl r c = true \/ (explicit S c = false /\ firstany r = true))
          S (dstep S c).
Proof.
  rewrite dstep_spec. generalize (explicit S c) as e. intros e HS.
  induction HS as [|r S' Hr HS' IH]; simpl; constructor; [|exact IH].
  rewrite (deriv_live dots _ c r Hr), negb_true_iff. reflexivity.
Qed.

Theorem dstep_component dots S c : Forall (nz dots) S ->
  Forall2 (fun r r' => is_emp r' = false <->
             expl r c = true \/ (explicit S c = false /\ firstany r = true))
          S (dstep S c).
Proof. intros HS. apply (dstep_survivors dots). eapply Forall_impl; [|exact HS]. intros r Hr. right. exact Hr. Qed.

Lemma expl_lang2 r c : wfz true r -> (expl r c = true <-> exists w, lang2 r ((c, false) :: w)).
Proof.
  intros Hw. setoid_rewrite <- deriv_lang2.
  rewrite <- (live_iff_inhabited2 _ (deriv_wfz true false c r Hw)), (deriv_live true false c r Hw).
  split; [auto|intros [H|[H _]]; [exact H|discriminate]].
Qed.

Print Assumptions pattern_lang.
Print Assumptions deriv_correct.
Print Assumptions live_prefix.
Print Assumptions verdict_correct.
Print Assumptions Winner_unique.
Print Assumptions explicit_spec.
Print Assumptions dstep_component.
