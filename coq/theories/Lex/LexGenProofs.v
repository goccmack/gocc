(** Property C01, part (D) of Properties/C01.v, for EVERY lexical grammar, at model level: the DFA built by the model generator
    [LexGen.lexgen] (gocc's item-set construction) and the definitional tokenizer of the grammar
    ([Deriv.dscan_n], derivatives with the contextual dot and the priority rule) return the same
    tokens on all inputs.

    Route: the states of the model are sets of POSITIONS (Glushkov); the position automaton of a
    token pattern accepts, over letters (rune, dot-flag), the language [lang2] of its residual
    ([build_spec]); a derivative state and a position set are related when they denote the same
    languages component by component ([Sem]); this relation is a bisimulation between the emitted
    table and the derivative automaton ([row_step], [sem_step]), and bisimilar automata scan alike
    ([BisimProofs.table_bisim]). *)
From Coq Require Import List ZArith Lia Bool Arith Setoid.
From Gocc Require Import Base.Utf8 Base.Ranges Base.RangesProofs Lex.Scan Lex.ScanProofs Lex.Pattern Lex.Deriv
  Lex.GScanProofs Lex.DerivProofs Lex.Bisim Lex.BisimProofs Lex.LexGen Lex.LexLang.
Import ListNotations.
Open Scope Z_scope.

(** ** The raw translation of a pattern denotes the language of its residual *)
Lemma ralts_cons a l w : lang2 (ralts (a :: l)) w <-> lang2 a w \/ lang2 (ralts l) w.
Proof.
  destruct l; [simpl; rewrite lang2_Emp; tauto|]. change (ralts (a :: r :: l)) with (Alt a (ralts (r :: l))).
  apply lang2_Alt.
Qed.

Definition raw_equiv (t : term) : Prop := forall w, lang2 (raw_t t) w <-> lang2 (re_of_term t) w.

Lemma raw_seq_lang2 a : Forall raw_equiv a -> forall w,
  lang2 (rseqs (map raw_t a)) w <-> lang2 (seqs (map re_of_term a)) w.
Proof.
  induction 1 as [|t a Ht Ha IH]; intros w; simpl; [reflexivity|].
  rewrite lang2_Seq, mkSeq_lang2. apply seqL2_iff; assumption.
Qed.

Lemma raw_body_lang2 p : Forall (Forall raw_equiv) p -> forall w,
  lang2 (ralts (map (fun a => rseqs (map raw_t a)) p)) w <->
  lang2 (alts (map (fun a => seqs (map re_of_term a)) p)) w.
Proof.
  induction 1 as [|a p Ha Hp IH]; intros w; [reflexivity|]. cbn [map alts fold_right].
  rewrite ralts_cons, mkAlt_lang2, IH, (raw_seq_lang2 a Ha). reflexivity.
Qed.

Lemma raw_t_lang2 : forall t, raw_equiv t.
Proof.
  induction t using term_ind'; intros w; cbn [raw_t re_of_term].
  - reflexivity.
  - symmetry. apply mkSym_lang2.
  - reflexivity.
  - reflexivity.
  - rewrite mkAlt_lang2, lang2_Alt, (raw_body_lang2 p H). reflexivity.
  - rewrite mkStar_lang2. apply star2_ext. apply raw_body_lang2. exact H.
  - apply raw_body_lang2. exact H.
Qed.

Theorem raw_p_lang2 p w : lang2 (raw_p p) w <-> lang2 (re_of_pattern p) w.
Proof. exact (raw_t_lang2 (Grp p) w). Qed.

(** ** Well-formedness: [nzb] on the raw translation is [wf_p] on the pattern *)
Lemma nzb_nz : forall r, nzb r = true <-> nz true r.
Proof.
  induction r; simpl.
  - split; [discriminate|intros []].
  - split; trivial.
  - apply Z.leb_le.
  - reflexivity.
  - rewrite <- IHr1, <- IHr2. apply andb_true_iff.
  - rewrite <- IHr1, <- IHr2. apply andb_true_iff.
  - exact IHr.
Qed.

Lemma nzb_ralts l : nzb (ralts l) = nonnil l && forallb nzb l.
Proof.
  induction l as [|a l IH]; [reflexivity|]. destruct l as [|b l].
  - simpl. rewrite andb_true_r. reflexivity.
  - change (ralts (a :: b :: l)) with (Alt a (ralts (b :: l))). cbn [nzb]. rewrite IH. reflexivity.
Qed.

Lemma nzb_rseqs l : nzb (rseqs l) = forallb nzb l.
Proof. induction l as [|a l IH]; simpl; [reflexivity|]. rewrite IH. reflexivity. Qed.

Lemma nzb_body p : Forall (Forall (fun t => nzb (raw_t t) = wf_t t)) p ->
  nzb (ralts (map (fun a => rseqs (map raw_t a)) p)) = nonnil p && forallb (forallb wf_t) p.
Proof.
  intros HF. rewrite nzb_ralts, forallb_map. f_equal.
  - destruct p; reflexivity.
  - rewrite Forall_forall in HF. apply forallb_ext_in. intros a Ha.
    rewrite nzb_rseqs, forallb_map. apply forallb_ext_in. exact (proj1 (Forall_forall _ _) (HF a Ha)).
Qed.

Lemma nzb_raw_t : forall t, nzb (raw_t t) = wf_t t.
Proof.
  induction t using term_ind'; cbn [raw_t wf_t nzb]; try reflexivity.
  - apply Z.leb_refl.
  - apply nzb_body. exact H.
  - apply nzb_body. exact H.
  - apply nzb_body. exact H.
Qed.

Theorem nzb_raw_p p : nzb (raw_p p) = wf_p p.
Proof. exact (nzb_raw_t (Grp p)). Qed.

(** [lex_wf]: the regular definitions expand (none undefined, none recursive) and every expanded
    token pattern is well-formed *)
Theorem lex_wf_spec g :
  lex_wf g = match expand g with
             | None => false
             | Some kps => forallb (fun kp => wf_p (snd kp)) kps
             end.
Proof.
  unfold lex_wf, lex_raws. destruct (expand g) as [kps|]; [|reflexivity].
  rewrite forallb_map. apply forallb_ext_in. intros kp _. apply nzb_raw_p.
Qed.

(** ** The position automaton of one token accepts the language of its pattern (Glushkov, with continuations) *)
Definition lmatch (lf : leaf) (a : letter) : bool :=
  match lf with
  | LSym lo hi => in_rng lo hi (fst a)
  | LAny => snd a
  | LEnd _ => false
  end.

Section Auto.
Variable T : ptable.
Variable i : nat.          (* the token whose reduce item accepts *)

(** [acc K w]: from the set of positions [K], the word [w] leads to the reduce item of token [i] *)
Inductive acc : list nat -> list letter -> Prop :=
| acc_end K p fol : In p K -> nth_error T p = Some (LEnd i, fol) -> acc K []
| acc_step K p lf fol a w : In p K -> nth_error T p = Some (lf, fol) -> lmatch lf a = true ->
    acc fol w -> acc K (a :: w).

Lemma acc_inv K w : acc K w <->
  exists p lf fol, In p K /\ nth_error T p = Some (lf, fol) /\
    match w with [] => lf = LEnd i | a :: w' => lmatch lf a = true /\ acc fol w' end.
Proof.
  split.
  - intros [K0 p fol Hin Hp|K0 p lf fol a w' Hin Hp Hm Hw]; [exists p, (LEnd i), fol|exists p, lf, fol]; auto.
  - intros (p & lf & fol & Hin & Hp & H). destruct w as [|a w'].
    + subst lf. exact (acc_end K p fol Hin Hp).
    + destruct H as [Hm Hw]. exact (acc_step K p lf fol a w' Hin Hp Hm Hw).
Qed.

Lemma acc_incl K K' w : incl K K' -> acc K w -> acc K' w.
Proof.
  intros Hi H. apply acc_inv in H. destruct H as (p & lf & fol & Hin & H).
  apply acc_inv. exists p, lf, fol. split; [apply Hi, Hin|exact H].
Qed.

Lemma acc_nil w : ~ acc [] w.
Proof. intros H. apply acc_inv in H. destruct H as (p & _ & _ & [] & _). Qed.

Lemma acc_app K1 K2 w : acc (K1 ++ K2) w <-> acc K1 w \/ acc K2 w.
Proof.
  split.
  - intros H. apply acc_inv in H. destruct H as (p & lf & fol & Hin & H). apply in_app_or in Hin.
    destruct Hin as [Hin|Hin]; [left|right]; apply acc_inv; exists p, lf, fol; auto.
  - intros [H|H]; revert H; apply acc_incl; [apply incl_appl|apply incl_appr]; apply incl_refl.
Qed.

Lemma acc_ext K K' w : (forall p, In p K <-> In p K') -> (acc K w <-> acc K' w).
Proof. intros H. split; apply acc_incl; intros p Hp; apply H; exact Hp. Qed.

(** [T] contains the entries [E] from position [n] on *)
Definition sub_table (n : nat) (E : list entry) : Prop :=
  forall j e, nth_error E j = Some e -> nth_error T (n + j) = Some e.

Lemma sub_app n E1 E2 : sub_table n (E1 ++ E2) -> sub_table n E1 /\ sub_table (n + length E1) E2.
Proof.
  intros H. split; intros j e Hj.
  - apply H. rewrite nth_error_app1; [exact Hj|]. apply nth_error_Some. congruence.
  - rewrite <- Nat.add_assoc. apply H.
    rewrite nth_error_app2 by apply Nat.le_add_r. rewrite (Nat.add_comm (length E1) j), Nat.add_sub. exact Hj.
Qed.

Lemma sub_cons n e E : sub_table n (e :: E) -> nth_error T n = Some e /\ sub_table (S n) E.
Proof.
  intros H. split; [rewrite <- (Nat.add_0_r n); exact (H 0%nat e eq_refl)|].
  intros j e' Hj. rewrite Nat.add_succ_comm. exact (H (S j) e' Hj).
Qed.

Lemma build_length : forall r n K, length (build r n K) = nleaves r.
Proof.
  induction r; intros n K; simpl; auto; rewrite app_length; rewrite ?IHr1, ?IHr2; reflexivity.
Qed.

Lemma sub_build2 n a Ka b Kb : sub_table n (build a n Ka ++ build b (n + nleaves a) Kb) ->
  sub_table n (build a n Ka) /\ sub_table (n + nleaves a) (build b (n + nleaves a) Kb).
Proof. intros H. apply sub_app in H. rewrite build_length in H. exact H. Qed.

(** What follows a regular expression whose first set is [F] and continuation [K].  Only the non-empty
    words of [r] ([w1 <> []]): the first positions of [r] cannot see its empty word; [firstk_spec]
    adds the continuation when [r] is nullable.  This is what makes the induction on [Star] go. *)
Definition FollowSpec (r : re) (F K : list nat) : Prop :=
  forall w, acc F w <-> exists w1 w2, w = w1 ++ w2 /\ w1 <> [] /\ lang2 r w1 /\ acc K w2.

Lemma firstk_spec r F K : FollowSpec r F K ->
  forall w, acc (F ++ (if nullable r then K else [])) w <->
            exists u1 u2, w = u1 ++ u2 /\ lang2 r u1 /\ acc K u2.
Proof.
  intros HS w. rewrite acc_app. split.
  - intros [H|H].
    + apply HS in H. destruct H as (w1 & w2 & -> & _ & H1 & H2). exists w1, w2. auto.
    + destruct (nullable r) eqn:En; [|destruct (acc_nil _ H)].
      exists [], w. split; [reflexivity|]. split; [apply nullable_lang2, En|exact H].
  - intros (u1 & u2 & -> & H1 & H2). destruct u1 as [|x u1].
    + right. apply nullable_lang2 in H1. rewrite H1. exact H2.
    + left. apply HS. exists (x :: u1), u2. repeat split; [discriminate|exact H1|exact H2].
Qed.

Lemma FollowSpec_nil r K : (forall u, lang2 r u -> u = []) -> FollowSpec r [] K.
Proof.
  intros Hr w. split; [intros H; destruct (acc_nil _ H)|].
  intros (w1 & w2 & _ & Hne & H & _). destruct (Hne (Hr _ H)).
Qed.

Lemma FollowSpec_leaf n lf r K : nth_error T n = Some (lf, K) -> (forall j, lf <> LEnd j) ->
  (forall u, lang2 r u <-> exists a, u = [a] /\ lmatch lf a = true) -> FollowSpec r [n] K.
Proof.
  intros Hn Hlf Hr w. split.
  - intros H. apply acc_inv in H. destruct H as (p & lf' & fol & [Ep|[]] & Hp & H). subst p.
    rewrite Hn in Hp. injection Hp as <- <-. destruct w as [|a w']; [destruct (Hlf _ H)|].
    destruct H as [Hm Hw]. exists [a], w'. repeat split; [discriminate|apply Hr; eauto|exact Hw].
  - intros (w1 & w2 & -> & _ & H1 & H2). apply Hr in H1. destruct H1 as (a & -> & Hm).
    exact (acc_step [n] n lf K a w2 (or_introl eq_refl) Hn Hm H2).
Qed.

Lemma FollowSpec_Alt a b Fa Fb K : FollowSpec a Fa K -> FollowSpec b Fb K -> FollowSpec (Alt a b) (Fa ++ Fb) K.
Proof.
  intros Sa Sb w. rewrite acc_app, (Sa w), (Sb w). split.
  - intros [(w1 & w2 & E & Hne & H1 & H2)|(w1 & w2 & E & Hne & H1 & H2)]; exists w1, w2; rewrite lang2_Alt; auto.
  - intros (w1 & w2 & E & Hne & H1 & H2). apply lang2_Alt in H1.
    destruct H1 as [H1|H1]; [left|right]; exists w1, w2; auto.
Qed.

(** the continuation of [a] inside [Seq a b] is [b] followed by [K] *)
Lemma FollowSpec_Seq a b Fa Fb K : FollowSpec a Fa (Fb ++ (if nullable b then K else [])) -> FollowSpec b Fb K ->
  FollowSpec (Seq a b) (Fa ++ (if nullable a then Fb else [])) K.
Proof.
  intros Sa Sb w. pose proof (firstk_spec b Fb K Sb) as HKb. rewrite acc_app. split.
  - intros [H|H].
    + apply Sa in H. destruct H as (w1 & w2 & -> & Hne & H1 & H2).
      apply HKb in H2. destruct H2 as (u1 & u2 & -> & Hu1 & Hu2).
      exists (w1 ++ u1), u2. rewrite app_assoc. repeat split; [|constructor; assumption|exact Hu2].
      intros E. apply app_eq_nil in E. exact (Hne (proj1 E)).
    + destruct (nullable a) eqn:En; [|destruct (acc_nil _ H)].
      apply Sb in H. destruct H as (w1 & w2 & -> & Hne & H1 & H2).
      exists w1, w2. repeat split; [exact Hne| |exact H2].
      apply (l2_seq a b [] w1); [apply nullable_lang2, En|exact H1].
  - intros (w1 & w2 & -> & Hne & H1 & H2). apply lang2_Seq in H1. destruct H1 as (x & y & -> & Hx & Hy).
    rewrite <- app_assoc. destruct x as [|c x].
    + right. apply nullable_lang2 in Hx. rewrite Hx. apply Sb. exists y, w2. auto.
    + left. apply Sa. exists (c :: x), (y ++ w2). repeat split; [discriminate|exact Hx|].
      apply HKb. exists y, w2. auto.
Qed.

(** the continuation of [a] inside [Star a] is [Star a] again, then [K] *)
Lemma FollowSpec_Star a F K : FollowSpec a F (F ++ K) -> FollowSpec (Star a) F K.
Proof.
  intros Sa.
  assert (C2 : forall u1, lang2 (Star a) u1 -> forall u2, acc K u2 -> acc (F ++ K) (u1 ++ u2)).
  { intros u1 Hu1. remember (Star a) as s eqn:Es. induction Hu1; inversion Es; subst; intros u2 Hu2.
    - apply acc_app. right. exact Hu2.
    - specialize (IHHu1_2 eq_refl u2 Hu2). destruct w1 as [|x w1]; [exact IHHu1_2|].
      apply acc_app. left. apply Sa. exists (x :: w1), (w2 ++ u2).
      rewrite app_assoc. repeat split; [discriminate|exact Hu1_1|exact IHHu1_2]. }
  (* left to right by induction on the length of the word: each turn of [Sa] consumes a letter *)
  assert (C1 : forall m w, (length w < m)%nat -> acc F w ->
            exists w1 w2, w = w1 ++ w2 /\ w1 <> [] /\ lang2 (Star a) w1 /\ acc K w2).
  { induction m as [|m IHm]; intros w Hlen Hw; [lia|].
    apply Sa in Hw. destruct Hw as (w1 & v & -> & Hne & H1 & Hv). apply acc_app in Hv. destruct Hv as [Hv|Hv].
    - destruct (IHm v) as (u1 & u2 & -> & _ & Hu1 & Hu2); [|exact Hv|].
      { rewrite app_length in Hlen. destruct w1; [congruence|simpl in Hlen; lia]. }
      exists (w1 ++ u1), u2. rewrite app_assoc. repeat split; [|constructor; assumption|exact Hu2].
      intros E. apply app_eq_nil in E. exact (Hne (proj1 E)).
    - exists w1, v. repeat split; [exact Hne| |exact Hv].
      rewrite <- (app_nil_r w1). constructor; [exact H1|constructor]. }
  intros w. split; [apply (C1 (S (length w))), Nat.lt_succ_diag_r|].
  intros (w1 & w2 & -> & Hne & H1 & H2).
  destruct (star2_nonempty _ _ H1 Hne) as (v1 & v2 & -> & Hv1 & Ha & Hs).
  apply Sa. exists v1, (v2 ++ w2). rewrite app_assoc. repeat split; auto.
Qed.

(** Glushkov's construction, with a continuation: the first positions of [r] accept the non-empty words
    of [r] followed by what the continuation accepts *)
Theorem build_spec : forall r n K, sub_table n (build r n K) -> FollowSpec r (firstpos r n) K.
Proof.
  induction r; intros n K Hsub; cbn [firstpos build] in *.
  - apply FollowSpec_nil. intros u H. destruct (proj1 (lang2_Emp u) H).
  - apply FollowSpec_nil. intros u. apply lang2_Eps.
  - apply (FollowSpec_leaf n (LSym lo hi)); [apply (sub_cons _ _ _ Hsub)|discriminate|].
    intros u. rewrite lang2_Sym. split.
    + intros (c & d & -> & H). exists (c, d). split; [reflexivity|apply in_rng_iff, H].
    + intros ([c d] & -> & H). exists c, d. split; [reflexivity|apply in_rng_iff, H].
  - apply (FollowSpec_leaf n LAny); [apply (sub_cons _ _ _ Hsub)|discriminate|].
    intros u. rewrite lang2_Any. split.
    + intros (c & ->). exists (c, true). split; reflexivity.
    + intros ([c d] & -> & H). simpl in H. subst d. exists c. reflexivity.
  - apply sub_build2 in Hsub. apply FollowSpec_Alt; [apply IHr1|apply IHr2]; apply Hsub.
  - apply sub_build2 in Hsub. apply FollowSpec_Seq; [apply IHr1|apply IHr2]; apply Hsub.
  - apply FollowSpec_Star, IHr, Hsub.
Qed.

Lemma build_coacc : forall r n K, nz true r -> sub_table n (build r n K) -> (exists w, acc K w) ->
  forall lf fol, In (lf, fol) (build r n K) -> (exists w, acc fol w) /\ (forall i', lf <> LEnd i').
Proof.
  induction r; intros n K Hnz Hsub HK lf fol Hin; cbn [build] in *.
  - destruct Hin.
  - destruct Hin.
  - destruct Hin as [[= <- <-]|[]]. split; [exact HK|discriminate].
  - destruct Hin as [[= <- <-]|[]]. split; [exact HK|discriminate].
  - destruct Hnz as [N1 N2]. apply sub_build2 in Hsub. destruct Hsub as [Ha Hb].
    apply in_app_or in Hin. destruct Hin as [Hin|Hin]; [eapply IHr1|eapply IHr2]; eauto.
  - destruct Hnz as [N1 N2]. apply sub_build2 in Hsub. destruct Hsub as [Ha Hb].
    apply in_app_or in Hin. destruct Hin as [Hin|Hin]; [|eapply IHr2; eauto].
    eapply IHr1; [exact N1|exact Ha| |exact Hin].
    destruct HK as [w2 Hw2]. destruct (nz_inhabited true r2 N2) as [u1 Hu1].
    exists (flag true u1 ++ w2). apply (firstk_spec r2 _ K (build_spec r2 _ K Hb)). exists (flag true u1), w2. auto.
  - eapply IHr; [exact Hnz|exact Hsub| |exact Hin].
    destruct HK as [w Hw]. exists w. apply acc_app. right. exact Hw.
Qed.
End Auto.

Arguments acc_incl {T i K K' w}.

(** ** The table of all tokens: block [i] accepts pattern [i], for token [i] only *)
Lemma sub_refl T : sub_table T 0 T.
Proof. intros j e Hj. exact Hj. Qed.

Lemma acc_only_end T i i0 e u : nth_error T e = Some (LEnd i0, []) -> (acc T i [e] u <-> i = i0 /\ u = []).
Proof.
  intros He. split.
  - intros H. apply acc_inv in H. destruct H as (p & lf & fol & [Ep|[]] & Hp & H). subst p.
    injection (eq_trans (eq_sym He) Hp) as <- <-. destruct u as [|a u]; [injection H as <-; auto|].
    destruct H as [Hm _]. discriminate Hm.
  - intros [-> ->]. exact (acc_end T i0 [e] e [] (or_introl eq_refl) He).
Qed.

Lemma sub_block T r rs i0 off : sub_table T off (blocks (r :: rs) i0 off) ->
  sub_table T off (build r off [(off + nleaves r)%nat]) /\
  nth_error T (off + nleaves r) = Some (LEnd i0, []) /\
  sub_table T (S (off + nleaves r)) (blocks rs (S i0) (S (off + nleaves r))).
Proof.
  cbn [blocks]. intros H. apply sub_app in H. rewrite build_length in H. destruct H as [Ha H].
  apply sub_cons in H. exact (conj Ha H).
Qed.

Lemma block_lang T r off i0 i w :
  sub_table T off (build r off [(off + nleaves r)%nat]) -> nth_error T (off + nleaves r) = Some (LEnd i0, []) ->
  (acc T i (firstpos r off ++ (if nullable r then [(off + nleaves r)%nat] else [])) w <-> i = i0 /\ lang2 r w).
Proof.
  intros Hb Hend. rewrite (firstk_spec T i r _ _ (build_spec T i r off _ Hb) w). split.
  - intros (u1 & u2 & -> & H1 & H2). apply (acc_only_end T i i0 _ u2 Hend) in H2. destruct H2 as [-> ->].
    rewrite app_nil_r. auto.
  - intros [-> Hw]. exists w, []. rewrite app_nil_r. repeat split; [exact Hw|].
    apply (acc_only_end T i0 i0 _ [] Hend). auto.
Qed.

Lemma blocks_inits T : forall rs i0 off, sub_table T off (blocks rs i0 off) ->
  forall i w, acc T i (inits rs off) w <->
              exists j r, i = (i0 + j)%nat /\ nth_error rs j = Some r /\ lang2 r w.
Proof.
  induction rs as [|r rs IH]; intros i0 off Hsub i w.
  - split; [intros H; destruct (acc_nil _ _ _ H)|].
    intros (j & r & _ & H & _). destruct j; discriminate.
  - apply sub_block in Hsub. destruct Hsub as (Hb & Hend & Hrs). cbn [inits].
    rewrite app_assoc, acc_app, (block_lang T r off i0 i w Hb Hend), (IH _ _ Hrs). split.
    + intros [[-> Hw]|(j & r' & -> & Hj & Hw)]; [exists 0%nat, r|exists (S j), r'];
        rewrite ?Nat.add_0_r, ?Nat.add_succ_r; auto.
    + intros (j & r' & -> & Hj & Hw). destruct j as [|j].
      * left. injection Hj as <-. rewrite Nat.add_0_r. auto.
      * right. exists j, r'. rewrite Nat.add_succ_r. auto.
Qed.

(** every follow set of the table leads to some reduce item *)
Definition table_ok (T : ptable) : Prop :=
  forall p lf fol, nth_error T p = Some (lf, fol) -> (forall i, lf <> LEnd i) -> exists i w, acc T i fol w.

Lemma blocks_ok T : forall rs i0 off, sub_table T off (blocks rs i0 off) -> Forall (nz true) rs ->
  forall lf fol, In (lf, fol) (blocks rs i0 off) -> (forall i, lf <> LEnd i) -> exists i w, acc T i fol w.
Proof.
  induction rs as [|r rs IH]; intros i0 off Hsub Hnz lf fol Hin Hlf; [destruct Hin|].
  pose proof (sub_block _ _ _ _ _ Hsub) as (Hb & Hend & Hrs). inversion Hnz as [|? ? Hr Hnz']; subst.
  cbn [blocks] in Hin. apply in_app_or in Hin. destruct Hin as [Hin|[[= <- <-]|Hin]].
  - exists i0. eapply (build_coacc T i0 r off _ Hr Hb); [|exact Hin].
    exists []. exact (acc_end T i0 [_] _ [] (or_introl eq_refl) Hend).
  - destruct (Hlf i0 eq_refl).
  - exact (IH _ _ Hrs Hnz' lf fol Hin Hlf).
Qed.

Lemma lex_table_ok rs : Forall (nz true) rs -> table_ok (lex_table rs).
Proof.
  intros H p lf fol Hp. apply nth_error_In in Hp.
  exact (blocks_ok _ rs 0%nat 0%nat (sub_refl _) H lf fol Hp).
Qed.

(** ** States as sorted duplicate-free lists *)
Lemma ins_In x : forall l y, In y (ins x l) <-> In y (x :: l).
Proof.
  induction l as [|z l IH]; intros y; [reflexivity|]. cbn [ins].
  destruct (Nat.compare_spec x z) as [->|_|_]; [|reflexivity|].
  - split; [right; assumption|intros [<-|H]; [left; reflexivity|exact H]].
  - split.
    + intros [H|H]; [right; left; exact H|]. apply IH in H. destruct H as [H|H]; [left|right; right]; exact H.
    + intros [H|[H|H]]; [right; apply IH; left|left|right; apply IH; right]; exact H.
Qed.

Lemma norm_In l : forall y, In y (norm l) <-> In y l.
Proof.
  induction l as [|x l IH]; intros y; [reflexivity|].
  apply (iff_trans (ins_In x (norm l) y)), or_iff_compat_l, IH.
Qed.

Lemma norm_nil l : norm l = [] <-> l = [].
Proof.
  split; [|intros ->; reflexivity]. destruct l as [|x l]; [reflexivity|]. intros H.
  assert (Hin : In x (norm (x :: l))) by (apply norm_In; left; reflexivity). rewrite H in Hin. destruct Hin.
Qed.

Lemma state_eqb_eq : forall a b, state_eqb a b = true -> a = b.
Proof.
  induction a as [|x a IH]; destruct b as [|y b]; simpl; intros H; try discriminate; auto.
  apply andb_prop in H. destruct H as [H1 H2]. apply Nat.eqb_eq in H1. subst. f_equal. auto.
Qed.

Lemma state_eqb_refl : forall a, state_eqb a a = true.
Proof. induction a as [|x a IH]; simpl; [reflexivity|]. rewrite Nat.eqb_refl. exact IH. Qed.

(** ** Position sets against derivative states *)
Section Sem.
Variable T : ptable.
Hypothesis T_ok : table_ok T.

(** one step of the position automaton on a letter *)
Definition nstep (P : list nat) (a : letter) : list nat :=
  flat_map (fun p => match nth_error T p with
                     | Some (lf, fol) => if lmatch lf a then fol else []
                     | None => []
                     end) P.

Lemma in_nstep P a q : In q (nstep P a) <->
  exists p lf fol, In p P /\ nth_error T p = Some (lf, fol) /\ lmatch lf a = true /\ In q fol.
Proof.
  unfold nstep. rewrite in_flat_map. split.
  - intros (p & Hp & Hq). destruct (nth_error T p) as [[lf fol]|] eqn:E; [|destruct Hq].
    destruct (lmatch lf a) eqn:Em; [|destruct Hq]. exists p, lf, fol. auto.
  - intros (p & lf & fol & Hp & E & Em & Hq). exists p. split; [exact Hp|]. rewrite E, Em. exact Hq.
Qed.

Lemma acc_nstep i P a w : acc T i (nstep P a) w <-> acc T i P (a :: w).
Proof.
  rewrite (acc_inv T i P (a :: w)). split.
  - intros H. apply acc_inv in H. destruct H as (q & lf' & fol' & Hq & H).
    apply in_nstep in Hq. destruct Hq as (p & lf & fol & Hp & E & Em & Hq).
    exists p, lf, fol. repeat split; [exact Hp|exact E|exact Em|].
    apply acc_inv. exists q, lf', fol'. split; assumption.
  - intros (p & lf & fol & Hp & E & Em & Hw). revert Hw. apply acc_incl.
    intros q Hq. apply in_nstep. exists p, lf, fol. auto.
Qed.

(** [Sem P S]: component by component, the position set and the residual denote the same language *)
Definition Sem (P : list nat) (S : dstate) : Prop :=
  Forall (wfz true) S /\
  forall i w, acc T i P w <-> exists r, nth_error S i = Some r /\ lang2 r w.

Lemma ops_In P l h : In (l, h) (ops T P) <-> exists p fol, In p P /\ nth_error T p = Some (LSym l h, fol).
Proof.
  unfold ops. rewrite in_flat_map. split.
  - intros (p & Hp & Hin). destruct (nth_error T p) as [[[l' h'| |j] fol]|] eqn:E; try (destruct Hin; fail).
    destruct Hin as [Hin|[]]. inversion Hin; subst. exists p, fol. auto.
  - intros (p & fol & Hp & E). exists p. split; [exact Hp|]. rewrite E. left. reflexivity.
Qed.

Lemma sem_explicit P S c : Sem P S ->
  (explicit S c = true <-> exists op, In op (ops T P) /\ inr c op).
Proof.
  intros [Hw Hs]. rewrite Forall_forall in Hw. unfold explicit. rewrite existsb_exists. split.
  - intros (r & Hr & He). apply (expl_lang2 r c (Hw r Hr)) in He. destruct He as [w Hlw].
    destruct (In_nth_error _ _ Hr) as [i Hi].
    assert (Hacc : acc T i P ((c, false) :: w)) by (apply Hs; eauto).
    apply acc_inv in Hacc. destruct Hacc as (p & lf & fol & Hin & Hp & Hm & _).
    destruct lf as [l h| |j]; try discriminate Hm.
    exists (l, h). split; [apply ops_In; eauto|apply in_rng_iff, Hm].
  - intros ([l h] & Hop & Hc). apply ops_In in Hop. destruct Hop as (p & fol & Hp & E).
    destruct (T_ok p _ fol E) as (i & w & Hacc); [discriminate|].
    assert (Hacc' : acc T i P ((c, false) :: w)).
    { apply (acc_step T i P p _ fol (c, false) w Hp E); [apply in_rng_iff, Hc|exact Hacc]. }
    apply Hs in Hacc'. destruct Hacc' as (r & Hr & Hl). apply nth_error_In in Hr.
    exists r. split; [exact Hr|]. apply (expl_lang2 r c (Hw r Hr)). eauto.
Qed.

Lemma sem_step P S c : Sem P S -> Sem (nstep P (c, negb (explicit S c))) (dstep S c).
Proof.
  intros [Hw Hs]. unfold dstep. set (d := negb (explicit S c)). split.
  - exact (dstep_wfz true S c Hw).
  - intros i w. rewrite acc_nstep, Hs, nth_error_map. split.
    + intros (r & Hr & Hl). exists (deriv d r c). rewrite Hr. split; [reflexivity|]. apply deriv_lang2. exact Hl.
    + intros (r' & Hr & Hl). destruct (nth_error S i) as [r|]; [|discriminate].
      simpl in Hr. inversion Hr; subst. exists r. split; [reflexivity|]. apply deriv_lang2. exact Hl.
Qed.

Lemma sem_live P S : Sem P S -> (live S = true <-> exists i w, acc T i P w).
Proof.
  intros [Hw Hs]. rewrite Forall_forall in Hw. rewrite live_spec. split.
  - intros (r & Hr & Hne). apply (live_iff_inhabited2 r (Hw r Hr)) in Hne. destruct Hne as [w Hlw].
    destruct (In_nth_error _ _ Hr) as [i Hi]. exists i, w. apply Hs. eauto.
  - intros (i & w & Hacc). apply Hs in Hacc. destruct Hacc as (r & Hr & Hl). apply nth_error_In in Hr.
    exists r. split; [exact Hr|]. apply (live_iff_inhabited2 r (Hw r Hr)). eauto.
Qed.

Lemma nstep_coacc P a : (exists i w, acc T i (nstep P a) w) <-> nstep P a <> [].
Proof.
  split.
  - intros (i & w & H) E. rewrite E in H. eapply acc_nil. exact H.
  - intros Hne. destruct (nstep P a) as [|q l] eqn:E; [congruence|].
    assert (Hq : In q (nstep P a)) by (rewrite E; left; reflexivity).
    apply in_nstep in Hq. destruct Hq as (p & lf & fol & Hp & Ep & Em & Hq).
    destruct (T_ok p lf fol Ep) as (i & w & Hacc).
    { intros j ->. discriminate. }
    exists i, w. rewrite <- E. eapply acc_incl; [|exact Hacc].
    intros x Hx. apply in_nstep. exists p, lf, fol. auto.
Qed.

Lemma sem_next P S c : Sem P S ->
  Sem (norm (nstep P (c, negb (explicit S c)))) (dstep S c) /\
  (live (dstep S c) = true <-> norm (nstep P (c, negb (explicit S c))) <> []).
Proof.
  intros Hsem. pose proof (sem_step P S c Hsem) as H. split.
  - destruct H as [Hw Hs]. split; [exact Hw|]. intros i w. rewrite <- Hs. apply acc_ext, norm_In.
  - rewrite (sem_live _ _ H), nstep_coacc, norm_nil. reflexivity.
Qed.

Lemma has_end_acc i P : has_end T i P = true <-> acc T i P [].
Proof.
  unfold has_end. rewrite existsb_exists, acc_inv. split.
  - intros (p & Hp & H). destruct (nth_error T p) as [[[l h| |j] fol]|] eqn:E; try discriminate.
    apply Nat.eqb_eq in H. subst j. exists p, (LEnd i), fol. auto.
  - intros (p & lf & fol & Hin & Hp & ->). exists p. split; [exact Hin|]. rewrite Hp. apply Nat.eqb_refl.
Qed.

Lemma sem_verdict ks P S : Sem P S -> length S = length ks -> verdict ks S = accept_code T ks P.
Proof.
  intros [Hw Hs] Hlen. unfold accept_code, verdict.
  rewrite (candidates_ext ks S (map (fun i => if has_end T i P then Eps else Emp) (seq 0 (length ks)))); [reflexivity|].
  rewrite <- Hlen. apply Forall2_seq. intros j r Hj. simpl.
  destruct (has_end T j P) eqn:E.
  - apply has_end_acc in E. apply Hs in E. destruct E as (r' & Hr' & Hl). rewrite Hj in Hr'. inversion Hr'; subst.
    apply nullable_lang2 in Hl. rewrite Hl. reflexivity.
  - destruct (nullable r) eqn:En; [|reflexivity]. exfalso.
    apply nullable_lang2 in En. assert (Hacc : acc T j P []) by (apply Hs; eauto).
    apply has_end_acc in Hacc. congruence.
Qed.
(** ** The worklist: every numbered set gets its row *)

Lemma move_cls_nstep P cl c : In cl (classes (ops T P)) -> inr c cl ->
  move_cls T P cl = nstep P (c, false).
Proof.
  intros Hcl Hc. apply flat_map_ext_in. intros p Hp.
  destruct (nth_error T p) as [[[l h| |j] fol]|] eqn:E; simpl; try reflexivity.
  assert (Hop : In (l, h) (ops T P)) by (apply ops_In; eauto).
  pose proof (Inv_nonempty _ cl (classes_Inv (ops T P)) Hcl) as Hne.
  assert (Hlo : inr (fst cl) cl) by (split; [apply Z.le_refl|exact Hne]).
  assert (Hhi : inr (snd cl) cl) by (split; [exact Hne|apply Z.le_refl]).
  change ((l <=? fst cl) && (fst cl <=? h)) with (in_rng l h (fst cl)).
  (* the class lies inside the range of the item or outside it: [c] and its lower end agree *)
  destruct (classes_refine (ops T P) cl (l, h) Hcl Hop) as [Hin|Hout].
  - rewrite !(proj2 (in_rng_iff l h _)), (proj2 (Z.leb_le _ _)); [reflexivity|..];
      [apply (Hin _ Hhi)|apply (Hin _ Hc)|apply (Hin _ Hlo)].
  - rewrite !(not_true_is_false (in_rng l h _)); [reflexivity|..];
      intros H; apply in_rng_iff in H; [exact (Hout _ Hc H)|exact (Hout _ Hlo H)].
Qed.

Lemma move_dot_nstep P c : ~ covered c (classes (ops T P)) ->
  move_dot T P = nstep P (c, true).
Proof.
  intros Hno. apply flat_map_ext_in. intros p Hp.
  destruct (nth_error T p) as [[[l h| |j] fol]|] eqn:E; simpl; try reflexivity.
  destruct (in_rng l h c) eqn:Er; [|reflexivity]. destruct Hno. apply in_rng_iff in Er.
  apply classes_mem. exists (l, h). split; [apply ops_In; eauto|exact Er].
Qed.

Lemma hasdot_false : forall P, hasdot T P = false -> move_dot T P = [].
Proof.
  induction P as [|p P IH]; simpl; intros H; [reflexivity|].
  apply orb_false_iff in H. destruct H as [H1 H2]. rewrite (IH H2).
  destruct (nth_error T p) as [[[l h| |j] fol]|]; try reflexivity. discriminate.
Qed.

(** the list of sets only grows at its end, so a number, once given, keeps its set *)
Definition below (sts sts' : list state) : Prop := exists e, sts' = sts ++ e.

Lemma below_refl sts : below sts sts.
Proof. exists []. symmetry. apply app_nil_r. Qed.

Lemma below_trans a b c : below a b -> below b c -> below a c.
Proof. intros [e1 ->] [e2 ->]. exists (e1 ++ e2). symmetry. apply app_assoc. Qed.

Lemma below_nth sts sts' j P : below sts sts' -> nth_error sts j = Some P -> nth_error sts' j = Some P.
Proof. intros [e ->] H. rewrite nth_error_app1; [exact H|exact (nth_error_lt _ _ _ H)]. Qed.

Lemma below_length sts sts' : below sts sts' -> (length sts <= length sts')%nat.
Proof. intros [e ->]. rewrite app_length. apply Nat.le_add_r. Qed.

(** a target: -1 for the empty set, else the number of the set *)
Definition target_ok (sts : list state) (Q : state) (t : Z) : Prop :=
  (Q = [] /\ t = -1) \/ (Q <> [] /\ exists j, t = Z.of_nat j /\ nth_error sts j = Some Q).

Lemma target_ok_mono sts sts' Q t : below sts sts' -> target_ok sts Q t -> target_ok sts' Q t.
Proof.
  intros Hb [H|(Hne & j & -> & Hj)]; [left; exact H|right]. split; [exact Hne|]. exists j. split; [reflexivity|exact (below_nth _ _ _ _ Hb Hj)].
Qed.

Definition row_ok (sts : list state) (P : state) (row : trow) : Prop :=
  map fst (cases row) = classes (ops T P) /\
  (forall cl t, In (cl, t) (cases row) -> target_ok sts (norm (move_cls T P cl)) t) /\
  (if hasdot T P then target_ok sts (norm (move_dot T P)) (dflt row) else dflt row = -1).

Lemma row_ok_mono sts sts' P row : below sts sts' -> row_ok sts P row -> row_ok sts' P row.
Proof.
  intros Hb (H1 & H2 & H3). split; [exact H1|]. split.
  - intros cl t Hin. exact (target_ok_mono _ _ _ _ Hb (H2 cl t Hin)).
  - destruct (hasdot T P); [exact (target_ok_mono _ _ _ _ Hb H3)|exact H3].
Qed.

Lemma row_step sts P row S c : row_ok sts P row -> Sem P S ->
  target_ok sts (norm (nstep P (c, negb (explicit S c)))) (lookup (cases row) c (dflt row)).
Proof.
  intros (Hcls & Hcases & Hdot) Hsem.
  (* [explicit S c] says that some class of the row contains [c] *)
  pose proof (iff_trans (sem_explicit P S c Hsem) (iff_sym (classes_mem (ops T P) c))) as Hex.
  destruct (lookup_spec (cases row) c (dflt row)) as [(lo & hi & t & Hin & Hc & ->)|[Hno ->]].
  - assert (Hcl : In (lo, hi) (classes (ops T P))).
    { rewrite <- Hcls. apply in_map_iff. exists (lo, hi, t). auto. }
    rewrite (proj2 Hex) by (exists (lo, hi); split; [exact Hcl|exact Hc]).
    simpl. rewrite <- (move_cls_nstep P (lo, hi) c Hcl Hc). apply Hcases. exact Hin.
  - assert (Hnc : ~ covered c (classes (ops T P))).
    { intros ([lo hi] & Hcl & Hc). rewrite <- Hcls in Hcl. apply in_map_iff in Hcl.
      destruct Hcl as ([[lo' hi'] t] & [= -> ->] & Hin). exact (Hno lo hi t Hin Hc). }
    rewrite (not_true_is_false _ (fun E => Hnc (proj1 Hex E))).
    simpl. rewrite <- (move_dot_nstep P c Hnc).
    destruct (hasdot T P) eqn:Ed; [exact Hdot|]. left. rewrite (hasdot_false P Ed). auto.
Qed.

Lemma find_idx_sound P : forall sts i j, find_idx P sts i = Some j ->
  exists k, j = (i + k)%nat /\ nth_error sts k = Some P.
Proof.
  induction sts as [|Q sts IH]; intros i j H; simpl in H; [discriminate|].
  destruct (state_eqb Q P) eqn:E.
  - injection H as <-. apply state_eqb_eq in E. subst. exists 0%nat. split; [lia|reflexivity].
  - destruct (IH _ _ H) as (k & -> & Hk). exists (S k). split; [lia|exact Hk].
Qed.

Lemma add_state_spec sts P sts' j : add_state sts P = (sts', j) ->
  below sts sts' /\ nth_error sts' j = Some P.
Proof.
  unfold add_state. destruct (find_idx P sts 0) as [k|] eqn:E; intros [= <- <-].
  - split; [apply below_refl|]. destruct (find_idx_sound P _ _ _ E) as (k' & -> & Hk). exact Hk.
  - split; [exists [P]; reflexivity|]. rewrite nth_error_app2, Nat.sub_diag; [reflexivity|apply Nat.le_refl].
Qed.

Lemma add_succ_spec sts Q sts' t : add_succ sts Q = (sts', t) ->
  below sts sts' /\ target_ok sts' Q t.
Proof.
  unfold add_succ. destruct Q as [|x Q].
  - intros [= <- <-]. split; [apply below_refl|left; auto].
  - destruct (add_state sts (x :: Q)) as [sts1 j] eqn:E. intros [= <- <-].
    destruct (add_state_spec _ _ _ _ E) as [Hb Hj]. split; [exact Hb|].
    right. split; [discriminate|]. exists j. auto.
Qed.

Lemma do_classes_spec P : forall cls sts sts' cs, do_classes T P cls sts = (sts', cs) ->
  below sts sts' /\ map fst cs = cls /\
  forall cl t, In (cl, t) cs -> target_ok sts' (norm (move_cls T P cl)) t.
Proof.
  induction cls as [|c cls IH]; intros sts sts' cs H; simpl in H.
  - injection H as <- <-. split; [apply below_refl|]. split; [reflexivity|intros ? ? []].
  - destruct (add_succ sts (norm (move_cls T P c))) as [sts1 t] eqn:E1.
    destruct (do_classes T P cls sts1) as [sts2 cs'] eqn:E2. injection H as <- <-.
    destruct (add_succ_spec _ _ _ _ E1) as [Hb1 Ht]. destruct (IH _ _ _ E2) as (Hb2 & Hm & Hc).
    split; [exact (below_trans _ _ _ Hb1 Hb2)|]. split.
    + simpl. rewrite Hm. destruct c; reflexivity.
    + intros cl t' [[= <- <-]|Hin]; [|exact (Hc _ _ Hin)]. rewrite <- surjective_pairing.
      exact (target_ok_mono _ _ _ _ Hb2 Ht).
Qed.

Lemma do_dot_spec P sts sts' d : do_dot T P sts = (sts', d) ->
  below sts sts' /\
  (if hasdot T P then target_ok sts' (norm (move_dot T P)) d else d = -1).
Proof.
  unfold do_dot. destruct (hasdot T P).
  - apply add_succ_spec.
  - intros [= <- <-]. split; [apply below_refl|reflexivity].
Qed.

(** the treatment of one set by [loop]: its successors are numbered, its row is emitted *)
Definition row_of (P : state) (sts : list state) : list state * trow :=
  let '(sts1, cs) := do_classes T P (classes (ops T P)) sts in
  let '(sts2, d) := do_dot T P sts1 in
  (sts2, {| cases := cs; dflt := d |}).

Lemma loop_S fuel sts rows : loop T (S fuel) sts rows =
  match nth_error sts (length rows) with
  | None => Some (sts, rows)
  | Some P => let '(sts2, row) := row_of P sts in loop T fuel sts2 (rows ++ [row])
  end.
Proof.
  cbn [loop]. unfold row_of. destruct (nth_error sts (length rows)) as [P|]; [|reflexivity].
  destruct (do_classes T P (classes (ops T P)) sts) as [sts1 cs]. destruct (do_dot T P sts1). reflexivity.
Qed.

Lemma row_of_spec P sts sts2 row : row_of P sts = (sts2, row) -> below sts sts2 /\ row_ok sts2 P row.
Proof.
  unfold row_of. destruct (do_classes T P (classes (ops T P)) sts) as [sts1 cs] eqn:E1.
  destruct (do_dot T P sts1) as [sts' d] eqn:E2. intros [= <- <-].
  destruct (do_classes_spec P _ _ _ _ E1) as (Hb1 & Hm & Hc). destruct (do_dot_spec P _ _ _ E2) as (Hb2 & Hd).
  split; [exact (below_trans _ _ _ Hb1 Hb2)|]. split; [exact Hm|]. split; [|exact Hd].
  intros cl t Hin. exact (target_ok_mono _ _ _ _ Hb2 (Hc cl t Hin)).
Qed.

Lemma loop_inv (I : list state -> list trow -> Prop) :
  (forall sts rows P sts2 row, I sts rows -> nth_error sts (length rows) = Some P ->
     row_of P sts = (sts2, row) -> I sts2 (rows ++ [row])) ->
  forall fuel sts rows sts' rows', loop T fuel sts rows = Some (sts', rows') -> I sts rows ->
  I sts' rows' /\ nth_error sts' (length rows') = None.
Proof.
  intros Hstep. induction fuel as [|fuel IH]; intros sts rows sts' rows' H HI; [discriminate|].
  rewrite loop_S in H. destruct (nth_error sts (length rows)) as [P|] eqn:EP.
  - destruct (row_of P sts) as [sts2 row] eqn:ER. exact (IH _ _ _ _ H (Hstep _ _ _ _ _ HI EP ER)).
  - injection H as <- <-. split; assumption.
Qed.

(** the rows emitted so far are those of the first sets *)
Definition WInv (sts : list state) (rows : list trow) : Prop :=
  (length rows <= length sts)%nat /\
  forall q row, nth_error rows q = Some row -> exists P, nth_error sts q = Some P /\ row_ok sts P row.

Lemma WInv_nil sts : WInv sts [].
Proof. split; [apply Nat.le_0_l|intros [|q] row Hq; discriminate]. Qed.

Lemma WInv_step sts rows P sts2 row : WInv sts rows -> nth_error sts (length rows) = Some P ->
  row_of P sts = (sts2, row) -> WInv sts2 (rows ++ [row]) /\ below sts sts2.
Proof.
  intros [Hlen Hrows] EP ER. destruct (row_of_spec _ _ _ _ ER) as [Hb Hok].
  pose proof (nth_error_lt _ _ _ EP) as Hlt. pose proof (below_length _ _ Hb).
  split; [|exact Hb]. split; [rewrite app_length; simpl; lia|].
  intros q row' Hq. destruct (Nat.lt_ge_cases q (length rows)) as [Hql|Hqg].
  - rewrite nth_error_app1 in Hq by exact Hql. destruct (Hrows q row' Hq) as (P' & HP' & Hok').
    exists P'. split; [exact (below_nth _ _ _ _ Hb HP')|exact (row_ok_mono _ _ _ _ Hb Hok')].
  - rewrite nth_error_app2 in Hq by exact Hqg.
    destruct (q - length rows)%nat as [|q'] eqn:Eq; [|destruct q'; discriminate].
    injection Hq as <-. replace q with (length rows) by lia.
    exists P. split; [exact (below_nth _ _ _ _ Hb EP)|exact Hok].
Qed.

Lemma loop_spec fuel sts rows sts' rows' : loop T fuel sts rows = Some (sts', rows') ->
  WInv sts rows -> WInv sts' rows' /\ length rows' = length sts' /\ below sts sts'.
Proof.
  intros H HW.
  assert (Hstep : forall s r P s2 row, WInv s r /\ below sts s -> nth_error s (length r) = Some P ->
            row_of P s = (s2, row) -> WInv s2 (r ++ [row]) /\ below sts s2).
  { intros s r P s2 row [HWs Hb] EP ER. destruct (WInv_step _ _ _ _ _ HWs EP ER) as [HW2 Hb2].
    split; [exact HW2|exact (below_trans _ _ _ Hb Hb2)]. }
  destruct (loop_inv _ Hstep _ _ _ _ _ H (conj HW (below_refl sts))) as [[[Hlen Hrows] Hb] Hn].
  split; [split; assumption|]. split; [|exact Hb]. apply nth_error_None in Hn. lia.
Qed.

Section Related.
Variable ks : list tkind.
Variable sts : list state.
Variable rows : list trow.
Hypothesis HW : WInv sts rows.
Hypothesis Hlen : length rows = length sts.

Let acts := map (accept_code T ks) sts.

Definition Rel (q : Z) (S : dstate) : Prop :=
  exists j P, q = Z.of_nat j /\ nth_error sts j = Some P /\ Sem P S /\ length S = length ks.

(** [Rel] is kept by one step, in the form [BisimProofs.table_bisim] asks for *)
Lemma Rel_step q S c : Rel q S ->
  let t := trans (table_dfa rows acts) q c in
  if t =? -1 then live (dstep S c) = false
  else live (dstep S c) = true /\ accept (table_dfa rows acts) t = verdict ks (dstep S c) /\ Rel t (dstep S c).
Proof.
  intros (j & P & -> & HP & Hsem & HlenS). cbn [table_dfa trans accept]. rewrite Nat2Z.id.
  destruct (nth_error rows j) as [row|] eqn:Erow.
  2:{ apply nth_error_None in Erow. apply nth_error_lt in HP. lia. }
  destruct (proj2 HW _ _ Erow) as (P' & HP' & Hok). rewrite HP in HP'. injection HP' as <-.
  pose proof (row_step sts P row S c Hok Hsem) as Ht.
  destruct (sem_next P S c Hsem) as [Hsem' Hlive].
  set (N := norm (nstep P (c, negb (explicit S c)))) in *.
  set (t := lookup (cases row) c (dflt row)) in *.
  destruct Ht as [[HN Ht]|(HN & j' & Ht & Hj)].
  - rewrite Ht. exact (not_true_is_false _ (fun E => proj1 Hlive E HN)).
  - rewrite (proj2 (Z.eqb_neq t (-1))) by lia. split; [exact (proj2 Hlive HN)|].
    assert (HlenS' : length (dstep S c) = length ks) by (unfold dstep; rewrite map_length; exact HlenS).
    rewrite Ht, Nat2Z.id. split.
    + unfold acts. rewrite (nth_error_nth _ _ INVALID (map_nth_error (accept_code T ks) _ _ Hj)).
      symmetry. apply sem_verdict; assumption.
    + exists j', N. auto.
Qed.
End Related.
End Sem.

(** ** Correctness of the generated tables *)
Lemma lexgen_full_inv g fuel sts rows acts : lexgen_full g fuel = Some (sts, rows, acts) ->
  exists ks rs, lex_raws g = Some (ks, rs) /\ forallb nzb rs = true /\
    loop (lex_table rs) fuel [lex_state0 rs] [] = Some (sts, rows) /\
    acts = map (accept_code (lex_table rs) ks) sts.
Proof.
  unfold lexgen_full. destruct (lex_raws g) as [[ks rs]|]; [|discriminate].
  destruct (forallb nzb rs) eqn:Hnz; [|discriminate].
  destruct (loop _ fuel _ []) as [[sts0 rows0]|] eqn:Hl; [|discriminate].
  intros [= <- <- <-]. exists ks, rs. auto.
Qed.

Lemma sem_start (kps : list (tkind * pattern)) :
  Sem (lex_table (map (fun kp => raw_p (snd kp)) kps)) (lex_state0 (map (fun kp => raw_p (snd kp)) kps))
      (map (fun kp => re_of_pattern (snd kp)) kps).
Proof.
  split; [exact (dstate0_wfz kps)|]. intros i w. unfold lex_state0.
  rewrite (acc_ext _ i _ _ w (norm_In _)), (blocks_inits (lex_table _) _ 0%nat 0%nat (sub_refl _) i w).
  split.
  - intros (j & r & -> & Hj & Hw). cbn [Nat.add]. rewrite nth_error_map in *.
    destruct (nth_error kps j) as [kp|]; [injection Hj as <-|discriminate Hj].
    eexists. split; [reflexivity|]. apply raw_p_lang2, Hw.
  - intros (r & Hi & Hw). exists i. rewrite nth_error_map in *.
    destruct (nth_error kps i) as [kp|]; [injection Hi as <-|discriminate Hi].
    eexists. split; [reflexivity|]. split; [reflexivity|]. apply raw_p_lang2, Hw.
Qed.

Theorem lexgen_full_correct g fuel sts rows acts :
  lexgen_full g fuel = Some (sts, rows, acts) ->
  forall k l, Forall byte (rest l) ->
    scan_n decode_rune (table_dfa rows acts) k l = dscan_n g k l.
Proof.
  intros H. destruct (lexgen_full_inv _ _ _ _ _ H) as (ks0 & rs0 & Hraw & Hnz & Hloop & ->).
  unfold lex_raws in Hraw. destruct (expand g) as [kps|] eqn:Ex; [|discriminate]. injection Hraw as <- <-.
  set (ks := map fst kps) in *. set (rs := map (fun kp => raw_p (snd kp)) kps) in *.
  set (T := lex_table rs) in *.
  assert (T_ok : table_ok T).
  { apply lex_table_ok, Forall_forall. intros r Hr. apply nzb_nz. exact (proj1 (forallb_forall _ _) Hnz r Hr). }
  destruct (loop_spec T fuel _ _ _ _ Hloop (WInv_nil T _)) as (HW & Hlen & Hb).
  apply (table_bisim rows _ g ks _ (Rel T ks sts) (dinit_expand g kps Ex)).
  - exists 0%nat, (lex_state0 rs). split; [reflexivity|].
    split; [exact (below_nth _ _ 0%nat _ Hb eq_refl)|].
    split; [exact (sem_start kps)|unfold dstate0, ks; rewrite !map_length; reflexivity].
  - intros q S c HR _. exact (Rel_step T T_ok ks sts rows HW Hlen q S c HR).
Qed.

(** C01(b), model level: for every lexical grammar the model generator accepts, the generated DFA and the
    definitional tokenizer agree on all inputs *)
Theorem lexgen_correct g fuel rows acts :
  lexgen g fuel = Some (rows, acts) ->
  forall k l, Forall byte (rest l) ->
    scan_n decode_rune (table_dfa rows acts) k l = dscan_n g k l.
Proof.
  unfold lexgen. destruct (lexgen_full g fuel) as [[[sts rows0] acts0]|] eqn:E; [|discriminate].
  intros [= <- <-]. exact (lexgen_full_correct _ _ _ _ _ E).
Qed.

Print Assumptions lexgen_correct.

(** ** Totality: the worklist stops within [2 ^ length T] sets *)
(** strictly increasing lists above [lo] *)
Fixpoint incr (lo : nat) (l : list nat) : Prop :=
  match l with
  | [] => True
  | x :: l' => (lo <= x)%nat /\ incr (S x) l'
  end.

Lemma incr_weaken lo lo' l : (lo' <= lo)%nat -> incr lo l -> incr lo' l.
Proof. destruct l; simpl; intuition lia. Qed.

Lemma ins_incr x : forall l lo, incr lo l -> (lo <= x)%nat -> incr lo (ins x l).
Proof.
  induction l as [|y l IH]; intros lo Hl Hx; simpl in *.
  - auto.
  - destruct Hl as [H1 H2]. destruct (Nat.compare x y) eqn:E.
    + simpl. auto.
    + apply Nat.compare_lt_iff in E. simpl. split; [exact Hx|]. split; [lia|exact H2].
    + apply Nat.compare_gt_iff in E. simpl. split; [exact H1|]. apply IH; [exact H2|lia].
Qed.

Lemma norm_incr l : incr 0 (norm l).
Proof. induction l as [|x l IH]; simpl; [exact I|]. apply ins_incr; [exact IH|lia]. Qed.

(** all sublists *)
Fixpoint subs (l : list nat) : list (list nat) :=
  match l with
  | [] => [[]]
  | x :: l' => map (cons x) (subs l') ++ subs l'
  end.

Lemma subs_length l : length (subs l) = (2 ^ length l)%nat.
Proof. induction l as [|x l IH]; simpl; [reflexivity|]. rewrite app_length, map_length, IH. lia. Qed.

Lemma subs_nil l : In [] (subs l).
Proof. induction l as [|x l IH]; simpl; [left; reflexivity|]. apply in_or_app. right. exact IH. Qed.

Lemma incr_subs : forall n s P, incr s P -> (forall x, In x P -> (x < s + n)%nat) -> In P (subs (seq s n)).
Proof.
  induction n as [|n IH]; intros s P Hi Hb.
  - destruct P as [|x P]; [left; reflexivity|]. exfalso. simpl in Hi. specialize (Hb x (or_introl eq_refl)). lia.
  - destruct P as [|x P]; [apply subs_nil|]. simpl in Hi. destruct Hi as [H1 H2].
    cbn [seq subs]. apply in_or_app. destruct (Nat.eq_dec x s) as [->|Hne].
    + left. apply in_map. apply IH; [exact H2|]. intros y Hy. specialize (Hb y (or_intror Hy)). lia.
    + right. apply IH.
      * simpl. split; [lia|exact H2].
      * intros y Hy. specialize (Hb y Hy). lia.
Qed.

Lemma firstpos_range : forall r n q, In q (firstpos r n) -> (n <= q < n + nleaves r)%nat.
Proof.
  induction r; intros n q H; simpl in *; try contradiction.
  - destruct H as [<-|[]]. lia.
  - destruct H as [<-|[]]. lia.
  - apply in_app_or in H. destruct H as [H|H]; [apply IHr1 in H|apply IHr2 in H]; lia.
  - apply in_app_or in H. destruct H as [H|H]; [apply IHr1 in H; lia|].
    destruct (nullable r1); [apply IHr2 in H; lia|destruct H].
  - apply IHr in H. lia.
Qed.

Lemma build_bound : forall r n K M, (forall q, In q K -> (q < M)%nat) -> (n + nleaves r <= M)%nat ->
  forall lf fol, In (lf, fol) (build r n K) -> forall q, In q fol -> (q < M)%nat.
Proof.
  induction r; intros n K M HK HM lf fol Hin; cbn [build nleaves] in *.
  - destruct Hin.
  - destruct Hin.
  - destruct Hin as [[= <- <-]|[]]. exact HK.
  - destruct Hin as [[= <- <-]|[]]. exact HK.
  - apply in_app_or in Hin. destruct Hin as [Hin|Hin];
      [refine (IHr1 n K M HK _ lf fol Hin)|refine (IHr2 _ K M HK _ lf fol Hin)]; lia.
  - apply in_app_or in Hin. destruct Hin as [Hin|Hin]; [|refine (IHr2 _ K M HK _ lf fol Hin); lia].
    refine (IHr1 n _ M _ _ lf fol Hin); [|lia].
    intros x Hx. apply in_app_or in Hx. destruct Hx as [Hx|Hx]; [apply firstpos_range in Hx; lia|].
    destruct (nullable r2); [exact (HK x Hx)|destruct Hx].
  - refine (IHr n _ M _ HM lf fol Hin).
    intros x Hx. apply in_app_or in Hx. destruct Hx as [Hx|Hx]; [apply firstpos_range in Hx; lia|exact (HK x Hx)].
Qed.

Lemma blocks_bound : forall rs i off lf fol, In (lf, fol) (blocks rs i off) ->
  forall q, In q fol -> (q < off + length (blocks rs i off))%nat.
Proof.
  induction rs as [|r rs IH]; intros i off lf fol Hin q Hq; simpl in Hin; [contradiction|].
  cbn [blocks]. rewrite app_length, build_length. simpl.
  apply in_app_or in Hin. destruct Hin as [Hin|[E|Hin]].
  - eapply (build_bound r off [(off + nleaves r)%nat] (off + (nleaves r + S (length (blocks rs (S i) (S (off + nleaves r))))))%nat);
      [| |exact Hin|exact Hq]; [|lia].
    intros x [<-|[]]. lia.
  - inversion E; subst. destruct Hq.
  - specialize (IH _ _ _ _ Hin q Hq). lia.
Qed.

Lemma inits_bound : forall rs i off q, In q (inits rs off) -> (q < off + length (blocks rs i off))%nat.
Proof.
  induction rs as [|r rs IH]; intros i off q Hq; simpl in Hq; [contradiction|].
  cbn [blocks]. rewrite app_length, build_length. simpl.
  apply in_app_or in Hq. destruct Hq as [Hq|Hq]; [apply firstpos_range in Hq; lia|].
  apply in_app_or in Hq. destruct Hq as [Hq|Hq].
  - destruct (nullable r); [destruct Hq as [<-|[]]; lia|destruct Hq].
  - specialize (IH (S i) _ q Hq). lia.
Qed.

Definition table_closed (T : ptable) : Prop :=
  forall p lf fol, nth_error T p = Some (lf, fol) -> forall q, In q fol -> (q < length T)%nat.

Lemma lex_table_closed rs : table_closed (lex_table rs).
Proof.
  intros p lf fol Hp q Hq. apply nth_error_In in Hp.
  apply (blocks_bound rs 0%nat 0%nat lf fol Hp q Hq).
Qed.

Section Fuel.
Variable T : ptable.
Hypothesis Tcl : table_closed T.

(** a canonical state: strictly increasing positions of the table *)
Definition canon (P : state) : Prop := incr 0 P /\ forall x, In x P -> (x < length T)%nat.
Definition JInv (sts : list state) : Prop := NoDup sts /\ forall P, In P sts -> canon P.

Lemma canon_count sts : JInv sts -> (length sts <= 2 ^ length T)%nat.
Proof.
  intros [Hnd Hc]. rewrite <- (seq_length (length T) 0), <- subs_length.
  apply NoDup_incl_length; [exact Hnd|]. intros P HP. destruct (Hc P HP) as [H1 H2].
  apply incr_subs; [exact H1|exact H2].
Qed.

Lemma canon_norm l : (forall x, In x l -> (x < length T)%nat) -> canon (norm l).
Proof. intros H. split; [apply norm_incr|]. intros x Hx. apply H, norm_In, Hx. Qed.

Lemma canon_move_cls P c : canon (norm (move_cls T P c)).
Proof.
  apply canon_norm. intros x Hx. apply in_flat_map in Hx. destruct Hx as (p & _ & Hx).
  destruct (nth_error T p) as [[[l h| |j] fol]|] eqn:E; try destruct Hx.
  destruct ((l <=? fst c) && (fst c <=? h) && (snd c <=? h)); [|destruct Hx]. eapply Tcl; eauto.
Qed.

Lemma canon_move_dot P : canon (norm (move_dot T P)).
Proof.
  apply canon_norm. intros x Hx. apply in_flat_map in Hx. destruct Hx as (p & _ & Hx).
  destruct (nth_error T p) as [[[l h| |j] fol]|] eqn:E; try destruct Hx. eapply Tcl; eauto.
Qed.

Lemma find_idx_none P : forall sts i, find_idx P sts i = None -> ~ In P sts.
Proof.
  induction sts as [|Q sts IH]; intros i H; simpl in *; [tauto|].
  destruct (state_eqb Q P) eqn:E; [discriminate|]. intros [->|Hin].
  - rewrite state_eqb_refl in E. discriminate.
  - exact (IH _ H Hin).
Qed.

Lemma add_succ_J sts Q : JInv sts -> canon Q -> JInv (fst (add_succ sts Q)).
Proof.
  intros [Hnd Hc] HQ. unfold add_succ. destruct Q as [|x Q]; [split; assumption|].
  unfold add_state. destruct (find_idx (x :: Q) sts 0) as [k|] eqn:E; simpl; [split; assumption|].
  apply find_idx_none in E. split.
  - apply (NoDup_Add (Add_app (x :: Q) sts [])). rewrite app_nil_r. auto.
  - intros P HP. apply in_app_or in HP. destruct HP as [HP|[<-|[]]]; auto.
Qed.

Lemma do_classes_J P : forall cls sts, JInv sts -> JInv (fst (do_classes T P cls sts)).
Proof.
  induction cls as [|c cls IH]; intros sts HJ; simpl; [exact HJ|].
  pose proof (add_succ_J sts _ HJ (canon_move_cls P c)) as H1.
  destruct (add_succ sts (norm (move_cls T P c))) as [sts1 t]. simpl in H1.
  specialize (IH sts1 H1). destruct (do_classes T P cls sts1) as [sts2 cs]. exact IH.
Qed.

Lemma row_of_J P sts sts2 row : row_of T P sts = (sts2, row) -> JInv sts -> JInv sts2.
Proof.
  unfold row_of, do_dot. intros H HJ. pose proof (do_classes_J P (classes (ops T P)) sts HJ) as H1.
  destruct (do_classes T P (classes (ops T P)) sts) as [sts1 cs].
  pose proof (add_succ_J sts1 _ H1 (canon_move_dot P)) as H2.
  destruct (hasdot T P); [destruct (add_succ sts1 _)|]; injection H as <- _; assumption.
Qed.

(** the measure: [fuel + length rows] exceeds [2 ^ length T], which bounds the number of distinct canonical
    sets, hence [length sts], hence the rows still to be made *)
Lemma loop_total : forall fuel sts rows, JInv sts -> (length rows <= length sts)%nat ->
  (2 ^ length T < fuel + length rows)%nat -> loop T fuel sts rows <> None.
Proof.
  induction fuel as [|fuel IH]; intros sts rows HJ Hlen Hf.
  - pose proof (canon_count sts HJ). simpl in Hf. lia.
  - rewrite loop_S. destruct (nth_error sts (length rows)) as [P|] eqn:EP; [|discriminate].
    destruct (row_of T P sts) as [sts2 row] eqn:ER.
    pose proof (below_length _ _ (proj1 (row_of_spec T P _ _ _ ER))). apply nth_error_lt in EP.
    apply IH; [exact (row_of_J _ _ _ _ ER HJ)| |]; rewrite app_length; simpl; lia.
Qed.

Lemma loop_J fuel sts rows sts' rows' : loop T fuel sts rows = Some (sts', rows') -> JInv sts -> JInv sts'.
Proof.
  intros H HJ. refine (proj1 (loop_inv T (fun s _ => JInv s) _ _ _ _ _ _ H HJ)).
  intros s r P s2 row HJs _ ER. exact (row_of_J _ _ _ _ ER HJs).
Qed.
End Fuel.

Lemma JInv_start rs : JInv (lex_table rs) [lex_state0 rs].
Proof.
  split; [constructor; [intros []|constructor]|]. intros P [<-|[]].
  apply canon_norm. intros x Hx. exact (inits_bound rs 0%nat 0%nat x Hx).
Qed.

Theorem lexgen_total g fuel : lex_wf g = true -> (lex_fuel g <= fuel)%nat ->
  exists rows acts, lexgen g fuel = Some (rows, acts).
Proof.
  unfold lex_wf, lex_fuel, lexgen, lexgen_full. destruct (lex_raws g) as [[ks rs]|]; [|discriminate].
  intros Hwf Hfuel. rewrite Hwf.
  destruct (loop (lex_table rs) fuel [lex_state0 rs] []) as [[sts rows]|] eqn:E; [eauto|].
  exfalso. revert E. apply (loop_total (lex_table rs) (lex_table_closed rs)); [apply JInv_start|apply Nat.le_0_l|].
  simpl. lia.
Qed.

Theorem lexgen_rejects g fuel : lex_wf g = false -> lexgen g fuel = None.
Proof.
  unfold lex_wf, lexgen, lexgen_full. destruct (lex_raws g) as [[ks rs]|]; [|reflexivity].
  intros ->. reflexivity.
Qed.

Corollary lexgen_None_iff g : lexgen g (lex_fuel g) = None <-> lex_wf g = false.
Proof.
  split.
  - intros H. destruct (lex_wf g) eqn:E; [|reflexivity].
    destruct (lexgen_total g (lex_fuel g) E (le_n _)) as (rows & acts & H'). congruence.
  - apply lexgen_rejects.
Qed.

Theorem lexgen_states_bound g fuel sts rows acts : lexgen_full g fuel = Some (sts, rows, acts) ->
  exists rs ks, lex_raws g = Some (ks, rs) /\ (length sts <= 2 ^ length (lex_table rs))%nat /\
                length rows = length sts /\ length acts = length sts.
Proof.
  intros H. destruct (lexgen_full_inv _ _ _ _ _ H) as (ks & rs & Hraw & _ & Hloop & ->).
  exists rs, ks. split; [exact Hraw|].
  destruct (loop_spec (lex_table rs) fuel _ _ _ _ Hloop (WInv_nil _ _)) as (_ & Hlen & _).
  split; [|split; [exact Hlen|apply map_length]].
  apply (canon_count (lex_table rs)).
  exact (loop_J (lex_table rs) (lex_table_closed rs) _ _ _ _ _ Hloop (JInv_start rs)).
Qed.

Print Assumptions lexgen_total.
Print Assumptions lexgen_None_iff.
Print Assumptions lexgen_states_bound.

(** Examples: the expected tables are the ones `verifdump lexdump` prints (gocc's item sets). *)
(** keyword against identifier, a string-literal token, an ignored token, a regular definition:
      !ws : ' ' ;  _l : 'a'-'z' ;  id : _l { _l | '0'-'9' } ;  and the literal "if" *)
Definition ex1 : lexgrammar :=
  {| regdefs := [[[Rng 97 122]]];
     toks := [(Ign, [[Chr 32]]);
       (Tok 2 false, [[Ref 0%nat; Rep [[Ref 0%nat]; [Rng 48 57]]]]);
       (Tok 3 true, [[Chr 105; Chr 102]])] |}.
Definition ex1_rows : list trow :=
  [{| cases := [(32, 32, 1); (97, 104, 2); (105, 105, 3); (106, 122, 2)]; dflt := (-1) |};
   {| cases := []; dflt := (-1) |};
   {| cases := [(48, 57, 2); (97, 122, 2)]; dflt := (-1) |};
   {| cases := [(48, 57, 2); (97, 101, 2); (102, 102, 4); (103, 122, 2)]; dflt := (-1) |};
   {| cases := [(48, 57, 2); (97, 122, 2)]; dflt := (-1) |}].
Definition ex1_acts : list Z := [0; (-1); 2; 2; 3].
Example ex1_gen : lexgen ex1 100 = Some (ex1_rows, ex1_acts).
Proof. vm_compute. reflexivity. Qed.
Example ex1_correct : forall k l, Forall byte (rest l) ->
  scan_n decode_rune (table_dfa ex1_rows ex1_acts) k l = dscan_n ex1 k l.
Proof. exact (lexgen_correct _ _ _ _ ex1_gen). Qed.

(** the contextual dot:  cm : '/' '*' { . } '*' '/' ;  star : '*' ;  any : . ; *)
Definition ex2 : lexgrammar :=
  {| regdefs := [];
     toks := [(Tok 2 false, [[Chr 47; Chr 42; Rep [[Dot]]; Chr 42; Chr 47]]);
       (Tok 3 false, [[Chr 42]]);
       (Tok 4 false, [[Dot]])] |}.
Definition ex2_rows : list trow :=
  [{| cases := [(42, 42, 1); (47, 47, 2)]; dflt := 3 |};
   {| cases := []; dflt := (-1) |};
   {| cases := [(42, 42, 4)]; dflt := (-1) |};
   {| cases := []; dflt := (-1) |};
   {| cases := [(42, 42, 5)]; dflt := 4 |};
   {| cases := [(47, 47, 6)]; dflt := (-1) |};
   {| cases := []; dflt := (-1) |}].
Definition ex2_acts : list Z := [0; 3; 0; 4; 0; 0; 2].
Example ex2_gen : lexgen ex2 100 = Some (ex2_rows, ex2_acts).
Proof. vm_compute. reflexivity. Qed.
Example ex2_correct : forall k l, Forall byte (rest l) ->
  scan_n decode_rune (table_dfa ex2_rows ex2_acts) k l = dscan_n ex2 k l.
Proof. exact (lexgen_correct _ _ _ _ ex2_gen). Qed.

(** nested option / repetition, with a NULLABLE repetition body:
      num : '0'-'9' { [ '_' ] { '0'-'9' } } [ '.' [ '0'-'9' ] ] ; *)
Definition ex3 : lexgrammar :=
  {| regdefs := [];
     toks := [(Tok 2 false, [[Rng 48 57; Rep [[Opt [[Chr 95]]; Rep [[Rng 48 57]]]]; Opt [[Chr 46; Opt [[Rng 48 57]]]]]])] |}.
Definition ex3_rows : list trow :=
  [{| cases := [(48, 57, 1)]; dflt := (-1) |};
   {| cases := [(46, 46, 2); (48, 57, 1); (95, 95, 1)]; dflt := (-1) |};
   {| cases := [(48, 57, 3)]; dflt := (-1) |};
   {| cases := []; dflt := (-1) |}].
Definition ex3_acts : list Z := [0; 2; 2; 2].
Example ex3_gen : lexgen ex3 (lex_fuel ex3) = Some (ex3_rows, ex3_acts).
Proof. vm_compute. reflexivity. Qed.
Example ex3_correct : forall k l, Forall byte (rest l) ->
  scan_n decode_rune (table_dfa ex3_rows ex3_acts) k l = dscan_n ex3 k l.
Proof. exact (lexgen_correct _ _ _ _ ex3_gen). Qed.
(** the verified checker agrees (redundant with [ex3_correct]; a cross-check of the two routes) *)
Example ex3_bisim : bisim_check ex3_rows ex3_acts ex3 100 = true.
Proof. vm_compute. reflexivity. Qed.

(** rejected inputs: an empty range, a recursive and an undefined definition *)
Example bad_range : lexgen {| regdefs := []; toks := [(Tok 2 false, [[Chr 120; Rng 122 97]])] |} 100 = None.
Proof. vm_compute. reflexivity. Qed.
Example bad_rec : lexgen {| regdefs := [[[Chr 97; Ref 0%nat]]]; toks := [(Tok 2 false, [[Ref 0%nat]])] |} 100 = None.
Proof. vm_compute. reflexivity. Qed.
Example bad_undef : lexgen {| regdefs := []; toks := [(Tok 2 false, [[Ref 3%nat]])] |} 100 = None.
Proof. vm_compute. reflexivity. Qed.

Print Assumptions ex1_correct.
Print Assumptions lexgen_full_correct.
Print Assumptions lex_wf_spec.
Print Assumptions build_spec.
Print Assumptions raw_p_lang2.
