(** Property C01, part (A): what one call of Scan returns, for ANY automaton.  The inductive
    specification [ScanSpec] ("reads while the state stays live ...") holds of every result of
    [gscan] (hence of [Scan.scan] on gocc's tables and of the definitional tokenizer) and
    determines it. *)
From Coq Require Import List ZArith Lia Bool.
From Gocc Require Import Base.Utf8 Lex.Scan Lex.ScanProofs Lex.Pattern Lex.Deriv.
Import ListNotations.
Open Scope Z_scope.

Theorem gscan_n_dfa decode d : forall k l, gscan_n decode (dfa_machine d) k l = scan_n decode d k l.
Proof.
  induction k as [|k IH]; intros l; [reflexivity|]. cbn [gscan_n scan_n]. rewrite gscan_dfa.
  destruct (scan decode d l) as [[t l']|]; [|reflexivity]. rewrite IH. reflexivity.
Qed.

Section Spec.
Variable St : Type.
Variable decode : list Z -> Z * nat.
Variable M : machine St.

Definition mk (ty : Z) (lit : list Z) (start : lst) (skip : list Z) : tok :=
  {| ty := ty; lit := lit; toff := off start; tline := line start; tcol := col start; skipped := skip |}.

(** [Reads s l ty bs s' l' ty']: from automaton state [s] and input position [l] the bytes [bs] are
    read, character by character, each character has a transition into a state that is not an
    ignored-token state; [s'], [l'] are the state and position reached and [ty'] the accept code of
    [s'] -- or the initial [ty] when nothing was read. *)
Inductive Reads : St -> lst -> Z -> list Z -> St -> lst -> Z -> Prop :=
| R_nil s l ty : Reads s l ty [] s l ty
| R_cons s l ty r sz s1 bs s2 l2 ty2 :
    rest l <> [] -> decode (rest l) = (r, sz) -> m_step M s r = Some s1 -> m_acc M s1 <> -1 ->
    Reads s1 (consume r sz l) (m_acc M s1) bs s2 l2 ty2 ->
    Reads s l ty (firstn sz (rest l) ++ bs) s2 l2 ty2.

(** [Lexeme start skip t l']: the token [t] is what Scan returns when the lexeme starts at [start]
    after the ignored text [skip]; [l'] is the position after the call. *)
Inductive Lexeme : lst -> list Z -> tok -> lst -> Prop :=
| L_eof start skip :
    (* input exhausted: the end-of-input token, for ever *)
    rest start = [] -> Lexeme start skip (mk EOF [] start skip) start
| L_end start skip bs s cur ty :
    (* the input ends while the state is live: the token the text read matches (INVALID = 0 if none) *)
    rest start <> [] -> Reads (m_start M) start INVALID bs s cur ty -> rest cur = [] ->
    Lexeme start skip (mk ty bs start skip) cur
| L_tok start skip bs s cur ty r sz :
    (* the next character has no transition and the text read matches a token: that token, exactly that text *)
    rest start <> [] -> Reads (m_start M) start INVALID bs s cur ty -> rest cur <> [] ->
    decode (rest cur) = (r, sz) -> m_step M s r = None -> ty <> INVALID ->
    Lexeme start skip (mk ty bs start skip) cur
| L_invalid start skip bs s cur ty r sz :
    (* ... and the text read matches nothing: INVALID, which also consumes the killing character *)
    rest start <> [] -> Reads (m_start M) start INVALID bs s cur ty -> rest cur <> [] ->
    decode (rest cur) = (r, sz) -> m_step M s r = None -> ty = INVALID ->
    Lexeme start skip (mk INVALID (bs ++ firstn sz (rest cur)) start skip) (consume r sz cur)
| L_skip start skip bs s cur ty r sz s1 t l' :
    (* an ignored-token state is entered: the text is skipped at once and scanning restarts *)
    rest start <> [] -> Reads (m_start M) start INVALID bs s cur ty -> rest cur <> [] ->
    decode (rest cur) = (r, sz) -> m_step M s r = Some s1 -> m_acc M s1 = -1 ->
    Lexeme (consume r sz cur) (skip ++ bs ++ firstn sz (rest cur)) t l' ->
    Lexeme start skip t l'.

Definition ScanSpec (l : lst) (t : tok) (l' : lst) : Prop := Lexeme l [] t l'.

Lemma Reads_snoc : forall s l ty bs s1 l1 ty1, Reads s l ty bs s1 l1 ty1 ->
  forall r sz s2, rest l1 <> [] -> decode (rest l1) = (r, sz) -> m_step M s1 r = Some s2 -> m_acc M s2 <> -1 ->
  Reads s l ty (bs ++ firstn sz (rest l1)) s2 (consume r sz l1) (m_acc M s2).
Proof.
  induction 1; intros r' sz' s' Hne Hd Hs Ha.
  - rewrite <- (app_nil_r (firstn sz' (rest l))). simpl. econstructor; eauto. constructor.
  - rewrite <- app_assoc. econstructor; eauto.
Qed.

(** The invariant of the loop: either a lexeme is in progress and [acc] is what was read from [start],
    or the restart after ignored text happened at the end of the input. *)
Lemma gloop_Lexeme : forall fuel s cur start acc ttype skip t l',
  gloop decode M fuel s cur start acc ttype skip = Some (t, l') ->
  (rest start <> [] /\ Reads (m_start M) start INVALID acc s cur ttype) \/
  (rest start = [] /\ cur = start /\ acc = [] /\ ttype = EOF) ->
  Lexeme start skip t l'.
Proof.
  induction fuel as [|fuel IH]; intros s cur start acc ttype skip t l' Hrun Hinv; [discriminate|].
  destruct (nil_dec (rest cur)) as [Hc|Hc].
  - rewrite (gloop_end _ _ _ _ _ _ _ _ _ _ Hc) in Hrun. injection Hrun as <- <-.
    destruct Hinv as [[Hne HR]|(He & -> & -> & ->)]; [eapply L_end; eauto|apply L_eof; exact He].
  - destruct Hinv as [[Hne HR]|(He & -> & _)]; [|congruence].
    destruct (decode (rest cur)) as [r sz] eqn:Hd. rewrite (gloop_step _ _ _ _ _ _ _ _ _ _ _ _ Hc Hd) in Hrun.
    destruct (m_step M s r) as [ns|] eqn:Hs.
    + destruct (negb (m_acc M ns =? -1)) eqn:Ha.
      * eapply IH; [exact Hrun|]. left. split; [exact Hne|].
        eapply Reads_snoc; eauto. apply negb_true_iff, Z.eqb_neq in Ha. exact Ha.
      * apply negb_false_iff, Z.eqb_eq in Ha.
        eapply L_skip; eauto. eapply IH; [exact Hrun|].
        destruct (rest (consume r sz cur)) eqn:E.
        -- right. auto.
        -- left. split; [discriminate|constructor].
    + destruct (ttype =? INVALID) eqn:Hty; injection Hrun as <- <-.
      * apply Z.eqb_eq in Hty. eapply L_invalid; eauto.
      * apply Z.eqb_neq in Hty. eapply L_tok; eauto.
Qed.

Theorem gscan_ScanSpec l t l' : gscan decode M l = Some (t, l') -> ScanSpec l t l'.
Proof.
  unfold gscan, ScanSpec. destruct (rest l) as [|b bs] eqn:E; intros H.
  - injection H as <- <-. apply (L_eof l []). exact E.
  - eapply gloop_Lexeme; [exact H|]. left. split; [rewrite E; discriminate|constructor].
Qed.

(** Determinism of the specification ([Lexeme_det]) does not go through the next three lemmas: it
    compares both derivations with the loop. *)
(** reading cannot go on from ([s], [l]) *)
Definition Stuck (s : St) (l : lst) : Prop :=
  rest l = [] \/
  exists r sz, decode (rest l) = (r, sz) /\
    (m_step M s r = None \/ exists s1, m_step M s r = Some s1 /\ m_acc M s1 = -1).

Lemma Stuck_step s l r sz s1 : Stuck s l -> rest l <> [] -> decode (rest l) = (r, sz) ->
  m_step M s r = Some s1 -> m_acc M s1 <> -1 -> False.
Proof.
  intros [He|(r' & sz' & Hd & [Hn|(s' & Hs & Ha)])] Hne Hd' Hs' Ha'; congruence.
Qed.

Lemma Reads_det : forall s l ty bs1 s1 l1 ty1, Reads s l ty bs1 s1 l1 ty1 ->
  forall bs2 s2 l2 ty2, Reads s l ty bs2 s2 l2 ty2 -> Stuck s1 l1 -> Stuck s2 l2 ->
  bs1 = bs2 /\ s1 = s2 /\ l1 = l2 /\ ty1 = ty2.
Proof.
  induction 1 as [s l ty|s l ty r sz s1 bs s2 l2 ty2 Hne Hd Hs Ha HR IH];
    intros bs2' s2' l2' ty2' HR2 Hst1 Hst2;
    inversion HR2 as [|? ? ? r' sz' s1' bs' ? ? ? Hne' Hd' Hs' Ha' HR']; subst.
  - auto.
  - destruct (Stuck_step _ _ _ _ _ Hst1 Hne' Hd' Hs' Ha').
  - destruct (Stuck_step _ _ _ _ _ Hst2 Hne Hd Hs Ha).
  - assert (E : (r', sz') = (r, sz)) by congruence. injection E as -> ->.
    assert (s1' = s1) by congruence. subst s1'.
    destruct (IH _ _ _ _ HR' Hst1 Hst2) as (-> & -> & -> & ->). auto.
Qed.

Lemma Reads_det_state : forall s l ty bs1 s1 l1 ty1, Reads s l ty bs1 s1 l1 ty1 ->
  forall bs2 s2 l2 ty2, Reads s l ty bs2 s2 l2 ty2 -> Stuck s1 l1 -> Stuck s2 l2 -> s1 = s2.
Proof. intros s l ty bs1 s1 l1 ty1 H1 bs2 s2 l2 ty2 H2 St1 St2. apply (Reads_det _ _ _ _ _ _ _ H1 _ _ _ _ H2 St1 St2). Qed.

Lemma gloop_Reads : forall s l ty bs s' l' ty', Reads s l ty bs s' l' ty' ->
  exists n, forall fuel start acc skip,
    gloop decode M (n + fuel) s l start acc ty skip = gloop decode M fuel s' l' start (acc ++ bs) ty' skip.
Proof.
  induction 1 as [s l ty|s l ty r sz s1 bs s2 l2 ty2 Hne Hd Hs Ha HR [n IH]].
  - exists 0%nat. intros. rewrite app_nil_r. reflexivity.
  - exists (S n). intros fuel start acc skip. cbn [plus].
    rewrite (gloop_step _ _ _ _ _ _ _ _ _ _ _ _ Hne Hd), Hs.
    apply Z.eqb_neq in Ha. rewrite Ha. cbn [negb]. rewrite IH, app_assoc. reflexivity.
Qed.

(** no progress of the decoder is needed here: the derivation itself bounds the number of turns *)
Lemma Lexeme_gloop : forall start skip t l', Lexeme start skip t l' ->
  exists n, forall fuel,
    gloop decode M (n + fuel) (m_start M) start start [] (match rest start with [] => EOF | _ => INVALID end) skip
    = Some (t, l').
Proof.
  assert (Hrun : forall start skip bs s cur ty k, rest start <> [] -> Reads (m_start M) start INVALID bs s cur ty ->
            exists n, forall fuel,
              gloop decode M (n + fuel) (m_start M) start start [] (match rest start with [] => EOF | _ => INVALID end) skip
              = gloop decode M (k + fuel) s cur start bs ty skip).
  { intros start skip bs s cur ty k Hne HR. destruct (gloop_Reads _ _ _ _ _ _ _ HR) as [n Hn].
    exists (n + k)%nat. intros fuel. destruct (rest start); [contradiction|].
    rewrite <- Nat.add_assoc, Hn. reflexivity. }
  induction 1 as [start skip He
                 |start skip bs s cur ty Hne HR He
                 |start skip bs s cur ty r sz Hne HR Hc Hd Hs Hty
                 |start skip bs s cur ty r sz Hne HR Hc Hd Hs Hty
                 |start skip bs s cur ty r sz s1 t l' Hne HR Hc Hd Hs Ha HL [n' IH]].
  - exists 1%nat. intros fuel. cbn [plus]. rewrite (gloop_end _ _ _ _ _ _ _ _ _ _ He), He. reflexivity.
  - destruct (Hrun _ skip _ _ _ _ 1%nat Hne HR) as [n Hn]. exists n. intros fuel. rewrite Hn.
    exact (gloop_end _ _ _ _ _ _ _ _ _ _ He).
  - destruct (Hrun _ skip _ _ _ _ 1%nat Hne HR) as [n Hn]. exists n. intros fuel. rewrite Hn. cbn [plus].
    rewrite (gloop_step _ _ _ _ _ _ _ _ _ _ _ _ Hc Hd), Hs. apply Z.eqb_neq in Hty. rewrite Hty. reflexivity.
  - destruct (Hrun _ skip _ _ _ _ 1%nat Hne HR) as [n Hn]. exists n. intros fuel. rewrite Hn. cbn [plus].
    rewrite (gloop_step _ _ _ _ _ _ _ _ _ _ _ _ Hc Hd), Hs. subst ty. reflexivity.
  - destruct (Hrun _ skip _ _ _ _ (S n') Hne HR) as [n Hn]. exists n. intros fuel. rewrite Hn. cbn [plus].
    rewrite (gloop_step _ _ _ _ _ _ _ _ _ _ _ _ Hc Hd), Hs, Ha, Z.eqb_refl. exact (IH fuel).
Qed.

Theorem Lexeme_det : forall start skip t1 l1, Lexeme start skip t1 l1 ->
  forall t2 l2, Lexeme start skip t2 l2 -> t1 = t2 /\ l1 = l2.
Proof.
  intros start skip t1 l1 H1 t2 l2 H2.
  destruct (Lexeme_gloop _ _ _ _ H1) as [n1 E1]. destruct (Lexeme_gloop _ _ _ _ H2) as [n2 E2].
  specialize (E1 n2). rewrite Nat.add_comm, (E2 n1) in E1. injection E1 as -> ->. auto.
Qed.

Theorem ScanSpec_det l t1 l1 t2 l2 : ScanSpec l t1 l1 -> ScanSpec l t2 l2 -> t1 = t2 /\ l1 = l2.
Proof. intros H1 H2. eapply Lexeme_det; eauto. Qed.

Theorem ScanSpec_complete l t l' :
  (forall bs r sz, bs <> [] -> decode bs = (r, sz) -> (1 <= sz <= length bs)%nat) ->
  ScanSpec l t l' -> gscan decode M l = Some (t, l').
Proof.
  intros Hprog Hspec.
  destruct (gscan decode M l) as [[t0 l0]|] eqn:E; [|destruct (gscan_total decode Hprog St M l E)].
  destruct (ScanSpec_det _ _ _ _ _ (gscan_ScanSpec _ _ _ E) Hspec) as [-> ->]. reflexivity.
Qed.

Fixpoint msteps (s : St) (rs : list Z) : option St :=
  match rs with
  | [] => Some s
  | r :: rs' => match m_step M s r with None => None | Some s1 => msteps s1 rs' end
  end.

(** [Decodes l bs rs l']: the bytes [bs] at position [l] are the characters [rs], ending at [l'] *)
Inductive Decodes : lst -> list Z -> list Z -> lst -> Prop :=
| D_nil l : Decodes l [] [] l
| D_cons l r sz bs rs l' : rest l <> [] -> decode (rest l) = (r, sz) ->
    Decodes (consume r sz l) bs rs l' -> Decodes l (firstn sz (rest l) ++ bs) (r :: rs) l'.

Lemma Reads_runes : forall s l ty bs s' l' ty', Reads s l ty bs s' l' ty' ->
  exists rs, Decodes l bs rs l' /\ msteps s rs = Some s' /\
             (rs = [] -> ty' = ty) /\ (rs <> [] -> ty' = m_acc M s').
Proof.
  induction 1 as [s l ty|s l ty r sz s1 bs s2 l2 ty2 Hne Hd Hs Ha HR IH].
  - exists []. repeat split; auto; [constructor|congruence].
  - destruct IH as (rs & HD & Hm & H0 & H1). exists (r :: rs). repeat split.
    + econstructor; eauto.
    + cbn [msteps]. rewrite Hs. exact Hm.
    + discriminate.
    + intros _. destruct rs as [|x rs]; [|apply H1; discriminate].
      rewrite (H0 eq_refl). simpl in Hm. inversion Hm; subst. reflexivity.
Qed.

End Spec.

Theorem scan_ScanSpec decode d l t l' :
  scan decode d l = Some (t, l') -> ScanSpec Z decode (dfa_machine d) l t l'.
Proof. rewrite <- gscan_dfa. apply gscan_ScanSpec. Qed.

Lemma msteps_dmachine ks S0 : forall rs S S', msteps dstate (dmachine ks S0) S rs = Some S' -> S' = dsteps S rs.
Proof.
  induction rs as [|r rs IH]; intros S S' H; simpl in *.
  - inversion H; reflexivity.
  - destruct (live (dstep S r)); [|discriminate]. apply IH. exact H.
Qed.

Print Assumptions gscan_n_dfa.
Print Assumptions gscan_ScanSpec.
Print Assumptions ScanSpec_det.
Print Assumptions ScanSpec_complete.
Print Assumptions scan_ScanSpec.
Print Assumptions Reads_runes.
