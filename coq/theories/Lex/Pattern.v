(** Lexical patterns of a gocc grammar (property C01): abstract syntax, macro expansion of
    regular definitions, and the textbook denotational semantics of dot-free patterns.

    A pattern is a list of alternatives, an alternative is a list of terms:
      term = char literal | range | '.' | regDefId | [pattern] | {pattern} | (pattern).

    Definitions only (extracted to OCaml); [matches] is used by DerivProofs.v, [expand] through
    [Deriv.dinit] and [LexGen.lex_raws]. *)
From Coq Require Import List ZArith Bool.
Import ListNotations.
Open Scope Z_scope.

Inductive term :=
| Chr (c : Z)
| Rng (lo hi : Z)
| Dot
| Ref (n : nat)                       (* index into [regdefs] *)
| Opt (p : list (list term))
| Rep (p : list (list term))
| Grp (p : list (list term)).

Definition alt := list term.
Definition pattern := list alt.

(** kind of a token definition: [Tok ty strlit] is a token of type [ty] (>= 2), [strlit] when it
    is the implicit token of a string literal of the syntax part; [Ign] an ignored token. *)
Inductive tkind := Tok (ty : Z) (strlit : bool) | Ign.

Record lexgrammar := {
  regdefs : list pattern;              (* indexed by [Ref] *)
  toks : list (tkind * pattern)        (* in DECLARATION order *)
}.

(** ** Size measure and induction principle for the nested inductive *)
Definition list_sum (l : list nat) : nat := fold_right Nat.add 0%nat l.

Fixpoint tsize (t : term) : nat :=
  match t with
  | Chr _ | Rng _ _ | Dot | Ref _ => 1%nat
  | Opt p | Rep p | Grp p => S (list_sum (map (fun a => S (list_sum (map tsize a))) p))
  end.
Definition asize (a : alt) : nat := S (list_sum (map tsize a)).
Definition psize (p : pattern) : nat := list_sum (map asize p).

Section TermInd.
  Variable P : term -> Prop.
  Hypothesis HChr : forall c, P (Chr c).
  Hypothesis HRng : forall lo hi, P (Rng lo hi).
  Hypothesis HDot : P Dot.
  Hypothesis HRef : forall n, P (Ref n).
  Hypothesis HOpt : forall p, Forall (Forall P) p -> P (Opt p).
  Hypothesis HRep : forall p, Forall (Forall P) p -> P (Rep p).
  Hypothesis HGrp : forall p, Forall (Forall P) p -> P (Grp p).

  Fixpoint term_ind' (t : term) : P t :=
    let fa := fix fa (a : list term) : Forall P a :=
      match a with
      | [] => Forall_nil P
      | t :: a' => Forall_cons t (term_ind' t) (fa a')
      end in
    let fp := fix fp (p : list (list term)) : Forall (Forall P) p :=
      match p with
      | [] => Forall_nil (Forall P)
      | a :: p' => Forall_cons a (fa a) (fp p')
      end in
    match t with
    | Chr c => HChr c
    | Rng lo hi => HRng lo hi
    | Dot => HDot
    | Ref n => HRef n
    | Opt p => HOpt p (fp p)
    | Rep p => HRep p (fp p)
    | Grp p => HGrp p (fp p)
    end.
End TermInd.

(** ** Syntactic classes *)
Fixpoint dotfree_t (t : term) : bool :=
  match t with
  | Dot => false
  | Chr _ | Rng _ _ | Ref _ => true
  | Opt p | Rep p | Grp p => forallb (forallb dotfree_t) p
  end.
Definition dotfree (p : pattern) : bool := forallb (forallb dotfree_t) p.

Fixpoint reffree_t (t : term) : bool :=
  match t with
  | Ref _ => false
  | Chr _ | Rng _ _ | Dot => true
  | Opt p | Rep p | Grp p => forallb (forallb reffree_t) p
  end.
Definition reffree (p : pattern) : bool := forallb (forallb reffree_t) p.

(** ** Macro expansion of regular definitions *)
Section MapM.
  Variables (A B : Type) (f : A -> option B).
  Fixpoint mapM (l : list A) : option (list B) :=
    match l with
    | [] => Some []
    | x :: t =>
      match f x with
      | None => None
      | Some y => match mapM t with None => None | Some ys => Some (y :: ys) end
      end
    end.
End MapM.
Arguments mapM {A B} f l.

(** [expand_pat fuel defs p]: every [Ref n] is replaced by the (expanded) body of definition [n]
    in parentheses.  [fuel] bounds the nesting depth of definitions inside definitions; a
    definition that (directly or indirectly) uses itself exhausts any fuel: [None].  A [Ref]
    out of range is [None] too. *)
Fixpoint expand_pat (fuel : nat) (defs : list pattern) (p : pattern) {struct fuel} : option pattern :=
  match fuel with
  | O => None
  | S f =>
    let ex_term := fix ex_term (t : term) : option term :=
      match t with
      | Chr c => Some (Chr c)
      | Rng lo hi => Some (Rng lo hi)
      | Dot => Some Dot
      | Ref n =>
        match nth_error defs n with
        | None => None
        | Some d => option_map Grp (expand_pat f defs d)
        end
      | Opt q => option_map Opt (mapM (mapM ex_term) q)
      | Rep q => option_map Rep (mapM (mapM ex_term) q)
      | Grp q => option_map Grp (mapM (mapM ex_term) q)
      end in
    mapM (mapM ex_term) p
  end.

(** meant to be enough fuel for every non-recursive set of definitions (not proved) *)
Definition expand_fuel (g : lexgrammar) : nat := S (S (length (regdefs g))).

Definition expand (g : lexgrammar) : option (list (tkind * pattern)) :=
  mapM (fun kp => option_map (fun p => (fst kp, p)) (expand_pat (expand_fuel g) (regdefs g) (snd kp)))
       (toks g).

(** ** Denotational semantics of dot-free, definition-free patterns
    (no rule for [Dot] and [Ref]: they match nothing here) *)
Inductive matches : pattern -> list Z -> Prop :=
| m_pat p a w : In a p -> matches_alt a w -> matches p w
with matches_alt : alt -> list Z -> Prop :=
| ma_nil : matches_alt [] []
| ma_cons t a w1 w2 : matches_term t w1 -> matches_alt a w2 -> matches_alt (t :: a) (w1 ++ w2)
with matches_term : term -> list Z -> Prop :=
| mt_chr c : matches_term (Chr c) [c]
| mt_rng lo hi c : lo <= c <= hi -> matches_term (Rng lo hi) [c]
| mt_opt0 p : matches_term (Opt p) []
| mt_opt1 p w : matches p w -> matches_term (Opt p) w
| mt_rep0 p : matches_term (Rep p) []
| mt_rep1 p w1 w2 : matches p w1 -> matches_term (Rep p) w2 -> matches_term (Rep p) (w1 ++ w2)
| mt_grp p w : matches p w -> matches_term (Grp p) w.

Scheme matches_mind := Minimality for matches Sort Prop
  with matches_alt_mind := Minimality for matches_alt Sort Prop
  with matches_term_mind := Minimality for matches_term Sort Prop.
Combined Scheme matches_mutind from matches_mind, matches_alt_mind, matches_term_mind.
