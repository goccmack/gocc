(** C04 — LR(1) conflicts are reported exactly when the grammar is not LR(1). *)
From Coq Require Import List Arith Bool.
From Gocc Require Import LR.Parse LR.Validate LR.Canonical LR.CanonicalProofs LR.Gen LR.GenProofs LR.GenAuto.
Import ListNotations.

(** SPECIFICATION (Canonical.v, no tables involved): [CI g gamma] is the Dragon-book canonical LR(1) item set
    of the symbol string [gamma] (start item; closure with semantic FIRST; goto); a canonical state is a
    non-empty [CI g gamma]; [canonical_conflict g] : some canonical state has a terminal with two DIFFERENT
    candidate actions (accept / reduce p / shift), candidates exactly as gocc's Item.action defines them;
    [canonical_accept_conflict g] : one of them is accept.
    DUMP: [gocc_reports g nterms an tr] recomputes, from the item sets [an] and transitions [tr] gocc built,
    the number of states with a conflicting cell using the verified model of ItemSet.Action ([None] = the
    resolution panics).  [auto_valid] is the boolean certificate check that the dumped automaton IS the
    canonical collection; it is evaluated by the Coq kernel on gocc's dump for every grammar of the run. *)

(** the dumped automaton is the canonical collection *)
Theorem C04_dump_is_canonical : forall g nterms an tr, auto_valid g nterms an tr = true ->
  (forall gamma s, path tr gamma = Some s ->
     s < length (a_items an) /\ forall it, In it (items_of an s) <-> CI g gamma it) /\
  (forall s, s < length (a_items an) -> exists gamma, path tr gamma = Some s) /\
  (forall gamma, canonical_state g gamma -> exists s, path tr gamma = Some s).
Proof. exact auto_canonical. Qed.
Print Assumptions C04_dump_is_canonical.

(** gocc announces conflicts (n > 0) iff the canonical automaton has a state in which some terminal admits
    two different actions *)
Theorem C04_reported_iff_not_LR1 : forall g nterms an tr, auto_valid g nterms an tr = true ->
  forall n, gocc_reports g nterms an tr = Some n -> (0 < n <-> canonical_conflict g).
Proof. exact C04_reports. Qed.
Print Assumptions C04_reported_iff_not_LR1.

(** the refusal in both modes (panic in ResolveConflict) happens iff accepting competes with another action *)
Theorem C04_refused_iff_accept_conflict : forall g nterms an tr, auto_valid g nterms an tr = true ->
  (gocc_reports g nterms an tr = None <-> canonical_accept_conflict g).
Proof. exact C04_panics. Qed.
Print Assumptions C04_refused_iff_accept_conflict.

Theorem C04_conflict_free_never_reported : forall g nterms an tr, auto_valid g nterms an tr = true ->
  (canonical_conflict g <->
   gocc_reports g nterms an tr = None \/ exists n, gocc_reports g nterms an tr = Some n /\ 0 < n).
Proof. exact C04_conflict_iff. Qed.
Print Assumptions C04_conflict_free_never_reported.

(** The exit status (non-zero without -a when n > 0; zero with -a; non-zero in both modes on refusal) is a
    three-line function of [gocc_reports] in main.go; it is checked against the real binary on every run. *)

(** For EVERY grammar, through the model of the generator (LR/Gen.v, LR/GenAuto.v; compared with gocc on every run, exit
    status included): the status the syntax part decides is zero exactly when, without -a, the canonical LR(1)
    collection has no conflict and, with -a, accepting competes with nothing.  ([gocc_exit] = 1 for reported
    conflicts without -a, 2 for the refusal, the Go panic.) *)
Theorem C04_every_grammar_exit_status : forall g nn ntm symbols la_order p_acts terr fuel auto,
  gen_wf g nn ntm symbols la_order terr = true ->
  2 ^ length (item_universe g la_order) < fuel ->
  (gocc_exit g nn ntm symbols la_order p_acts terr auto fuel = Some 0 <->
   (if auto then ~ canonical_accept_conflict g else ~ canonical_conflict g)).
Proof. intros. now apply gocc_exit_zero_iff. Qed.
Print Assumptions C04_every_grammar_exit_status.

(** the generator in mode -a always ends, with resolved tables or with the refusal *)
Theorem C04_every_grammar_generator_total : forall g nn ntm symbols la_order p_acts terr fuel,
  gen_wf g nn ntm symbols la_order terr = true ->
  2 ^ length (item_universe g la_order) < fuel ->
  (exists tb an tr n, gen_run_auto g nn ntm symbols la_order p_acts terr fuel = AutoOk tb an tr n) \/
  (exists an tr, gen_run_auto g nn ntm symbols la_order p_acts terr fuel = AutoRefused an tr).
Proof. intros. now apply gen_run_auto_total. Qed.
Print Assumptions C04_every_grammar_generator_total.
