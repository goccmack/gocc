(** C03 — semantic actions are applied bottom-up, left to right, over the parse tree. *)
From Coq Require Import List Arith ZArith Lia Bool.
From Gocc Require Import LR.Parse LR.Validate LR.Trees LR.Eval LR.Sound Front.Sdt Front.SdtProofs.
Import ListNotations.
Close Scope Z_scope.

(** When Parse succeeds with value [v], there is a parse tree [t] of the input such that
    [v] and the log of action calls are exactly the post-order evaluation [eval] of the
    action expressions over [t] starting with call index 0 and an empty log:
    each explicit action is called once per node of its alternative, after the actions of the
    node's children (left to right), with the children's attributes in order as arguments;
    a terminal's attribute is the token object itself ([ATok] carries the token's identity);
    an alternative without action yields its first attribute, an empty one yields nil
    (see [Eval.apply_action]).  For all grammars, validated tables, actions [sem], inputs. *)
Theorem C03_result_is_postorder_evaluation : forall g tb an sem input fuel v,
  valid_backward g tb an = true -> no_error_shift tb = true ->
  Forall (fun t => ttype t <> EOFT) input -> Forall (fun t => ttype t < nterms tb) input ->
  r_out (parse tb sem input fuel) = POk v ->
  exists t pr0 X0 c, nth_error g 0 = Some pr0 /\ rhs pr0 = [X0] /\ wt g X0 t input /\
                     eval tb sem t 0 [] = EOk v c (r_log (parse tb sem input fuel)).
Proof.
  intros g tb an sem input fuel v HV HN HI HR.
  exact (good_result_ok g tb sem input _ v (parse_sound_valid g tb an sem input fuel HV HN HI HR)).
Qed.
Print Assumptions C03_result_is_postorder_evaluation.

(** If the [i]-th action call returns an error, Parse stops with an error carrying it and the
    failing call is the last entry of the log: no further action ran. *)
Theorem C03_action_error_stops : forall g tb an sem input fuel e i,
  valid_backward g tb an = true -> no_error_shift tb = true ->
  Forall (fun t => ttype t <> EOFT) input -> Forall (fun t => ttype t < nterms tb) input ->
  r_out (parse tb sem input fuel) = PErr e -> e_action e = Some i ->
  exists p kids l0, r_log (parse tb sem input fuel) = l0 ++ [(p, kids)] /\ sem i p kids = None.
Proof.
  intros g tb an sem input fuel e i HV HN HI HR.
  exact (good_result_action_error g tb sem input _ e i (parse_sound_valid g tb an sem input fuel HV HN HI HR)).
Qed.
Print Assumptions C03_action_error_stops.

(** post-order: evaluation of a node = evaluation of its children in order, then its action *)
Theorem C03_eval_is_postorder : forall tb sem p kids c log,
  eval tb sem (Node p kids) c log =
  match evals tb sem kids c log with
  | EFail i l => EFail i l
  | EOk vs c' l' => apply_action tb sem p vs c' l'
  end.
Proof. exact eval_node. Qed.
Print Assumptions C03_eval_is_postorder.

(** The rewriting of action expressions (model of Token.SDTVal, compared with the Go function on every run):
    text without '$' is untouched; $i (i a maximal digit string) becomes X[i]; $Ti becomes X[i] with the token
    type assertion; $Context becomes C. *)
Theorem C03_sdt_untouched : forall l, ~ In 36%Z l -> rw l = l.
Proof. exact rw_no_dollar. Qed.
Print Assumptions C03_sdt_untouched.
Theorem C03_sdt_attr : forall d ds rest, Forall (fun b => is_digit b = true) (d :: ds) ->
  match rest with b :: _ => is_digit b = false | [] => True end ->
  rw (36%Z :: (d :: ds) ++ rest) = s_x_open ++ (d :: ds) ++ s_close ++ rw rest.
Proof. exact rw_attr. Qed.
Print Assumptions C03_sdt_attr.
Theorem C03_sdt_token : forall d ds rest, Forall (fun b => is_digit b = true) (d :: ds) ->
  match rest with b :: _ => is_digit b = false | [] => True end ->
  rw (36%Z :: 84%Z :: (d :: ds) ++ rest) = s_x_open ++ (d :: ds) ++ s_tok ++ rw rest.
Proof. exact rw_token. Qed.
Print Assumptions C03_sdt_token.
Theorem C03_sdt_context : forall rest, rw (36%Z :: s_context ++ rest) = 67%Z :: rw rest.
Proof. exact rw_context. Qed.
Print Assumptions C03_sdt_context.
