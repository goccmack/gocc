(** C01 — the generated lexer returns exactly the tokens the lexical rules define.
    Only property theorems (closed by [exact]) and non-vacuity examples.

    Structure of the argument:
    (A) [C01_scan_meets_spec], [C01_spec_deterministic], [C01_spec_characterises_scan]:
        what one call of Scan returns, for ANY automaton: reads while there is a transition into a
        non-ignored state; token type = accept code of the state reached (0 = INVALID) with exactly
        the text read; INVALID also owns the character that has no transition; an ignored-token
        state restarts at once; exhausted input gives the end-of-input token for ever.
    (B) [C01_definitional_automaton_*]: the derivative automaton of the grammar IS the property's
        reading of the lexical rules: regular definitions expanded as macros; for dot-free grammars
        component [i] is nullable iff the text read matches pattern [i] (textbook semantics
        [matches]) and live iff the text is a prefix of a lexeme of pattern [i]; the accept code is
        the priority winner (string literal first, else earliest declared); and the operational
        clause of the contextual dot.
    (C) [C01_checked_tables]: if the bisimulation checker accepts the emitted tables
        (re-run on every generated lexer), Scan on the tables returns, token for token, what the
        definitional tokenizer returns.
    (D) [C01_every_grammar_*]: the model of gocc's lexer generator outputs, for every well-formed lexical
        part, tables on which Scan returns what the definitional tokenizer returns.
    (E) [C01_front_end_pattern_parser_round_trip]: the front end's pattern parser is a left inverse of the
        printer. *)
From Coq Require Import List ZArith Lia Bool.
From Gocc Require Import Lex.LexGen Lex.LexGenProofs Base.Utf8 Lex.Scan Lex.ScanProofs Lex.Pattern Lex.Deriv Lex.GScanProofs
  Lex.DerivProofs Lex.Bisim Lex.BisimProofs.
Import ListNotations.
Open Scope Z_scope.

(** (A) *)
Theorem C01_scan_meets_spec : forall decode d l t l',
  scan decode d l = Some (t, l') -> ScanSpec Z decode (dfa_machine d) l t l'.
Proof. exact scan_ScanSpec. Qed.
Print Assumptions C01_scan_meets_spec.

Theorem C01_spec_deterministic : forall St decode (M : machine St) l t1 l1 t2 l2,
  ScanSpec St decode M l t1 l1 -> ScanSpec St decode M l t2 l2 -> t1 = t2 /\ l1 = l2.
Proof. exact ScanSpec_det. Qed.
Print Assumptions C01_spec_deterministic.

Theorem C01_spec_characterises_scan : forall St decode (M : machine St) l t l',
  (forall bs r sz, bs <> [] -> decode bs = (r, sz) -> (1 <= sz <= length bs)%nat) ->
  ScanSpec St decode M l t l' -> gscan decode M l = Some (t, l').
Proof. exact ScanSpec_complete. Qed.
Print Assumptions C01_spec_characterises_scan.

Theorem C01_eof_for_ever : forall decode d l, rest l = [] ->
  scan decode d l =
  Some ({| ty := EOF; lit := []; toff := off l; tline := line l; tcol := col l; skipped := [] |}, l).
Proof. exact scan_eof_sticky. Qed.
Print Assumptions C01_eof_for_ever.

(** (B) *)
Theorem C01_pattern_semantics : forall p w, lang (re_of_pattern p) w <-> matches p w.
Proof. exact pattern_lang. Qed.
Print Assumptions C01_pattern_semantics.

Theorem C01_definitional_automaton_components : forall kps w,
  Forall (fun kp => dotfree (snd kp) = true) kps ->
  Forall2 (fun kp r => (nullable r = true <-> matches (snd kp) w) /\
                       (is_emp r = false <-> exists s, matches (snd kp) (w ++ s)))
          kps (dsteps (dstate0 kps) w).
Proof. exact deriv_correct. Qed.
Print Assumptions C01_definitional_automaton_components.

Theorem C01_definitional_automaton_live : forall kps w,
  Forall (fun kp => dotfree (snd kp) = true) kps ->
  (live (dsteps (dstate0 kps) w) = true <-> exists kp s, In kp kps /\ matches (snd kp) (w ++ s)).
Proof. exact live_prefix. Qed.
Print Assumptions C01_definitional_automaton_live.

Theorem C01_definitional_automaton_priority : forall kps w,
  Forall (fun kp => dotfree (snd kp) = true) kps ->
  Winner (fun p => matches p w) kps (verdict (map fst kps) (dsteps (dstate0 kps) w)).
Proof. exact verdict_correct. Qed.
Print Assumptions C01_definitional_automaton_priority.

Theorem C01_priority_unique : forall Q kps c1 c2, Winner Q kps c1 -> Winner Q kps c2 -> c1 = c2.
Proof. exact Winner_unique. Qed.
Print Assumptions C01_priority_unique.

Theorem C01_lexeme_dotfree : forall decode kps start bs s cur ty,
  Forall (fun kp => dotfree (snd kp) = true) kps ->
  Reads dstate decode (dmachine (map fst kps) (dstate0 kps)) (dstate0 kps) start INVALID bs s cur ty ->
  exists rs, Decodes decode start bs rs cur /\
    (rs = [] -> ty = INVALID) /\
    (rs <> [] -> Winner (fun p => matches p rs) kps ty) /\
    (forall c, m_step (dmachine (map fst kps) (dstate0 kps)) s c <> None <->
               exists kp sfx, In kp kps /\ matches (snd kp) (rs ++ c :: sfx)) /\
    (forall c s1, m_step (dmachine (map fst kps) (dstate0 kps)) s c = Some s1 ->
               Winner (fun p => matches p (rs ++ [c])) kps (m_acc (dmachine (map fst kps) (dstate0 kps)) s1)).
Proof. exact dotfree_reads. Qed.
Print Assumptions C01_lexeme_dotfree.

(** the contextual dot *)
Theorem C01_dot_explicit : forall S c, explicit S c = true <->
  exists r lo hi, In r S /\ In (lo, hi) (firstsyms r) /\ lo <= c <= hi.
Proof. exact explicit_spec. Qed.
Print Assumptions C01_dot_explicit.

Theorem C01_dot_step : forall dots S c, Forall (nz dots) S ->
  Forall2 (fun r r' => is_emp r' = false <->
             expl r c = true \/ (explicit S c = false /\ firstany r = true))
          S (dstep S c).
Proof. exact dstep_component. Qed.
Print Assumptions C01_dot_step.

(** (C) *)
Theorem C01_checked_tables : forall rows acts g fuel,
  bisim_check rows acts g fuel = true ->
  forall k l, Forall byte (rest l) ->
    scan_n decode_rune (table_dfa rows acts) k l = dscan_n g k l.
Proof. exact bisim_check_sound. Qed.
Print Assumptions C01_checked_tables.

Theorem C01_checked_tables_spec : forall rows acts g fuel ks S0,
  bisim_check rows acts g fuel = true -> dinit g = Some (ks, S0) ->
  forall l t l', Forall byte (rest l) ->
    scan decode_rune (table_dfa rows acts) l = Some (t, l') ->
    ScanSpec dstate decode_rune (dmachine ks S0) l t l'.
Proof. exact bisim_check_ScanSpec. Qed.
Print Assumptions C01_checked_tables_spec.

(** ** Non-vacuity *)
(** id : _l {_l} ; !ws : ' ' ; "if"  with _l : 'a'-'z' — and the DFA gocc emits for it *)
Example ex_g : lexgrammar := {| regdefs := [ [[Rng 97 122]] ];
  toks := [ (Tok 2 false, [[Ref 0; Rep [[Ref 0]]]]); (Ign, [[Chr 32]]); (Tok 3 true, [[Chr 105; Chr 102]]) ] |}.
Example ex_rows := [ {| cases := [(105,105,1);(97,104,2);(106,122,2);(32,32,3)]; dflt := -1 |};
  {| cases := [(102,102,4);(97,101,2);(103,122,2)]; dflt := -1 |};
  {| cases := [(97,122,2)]; dflt := -1 |};
  {| cases := []; dflt := -1 |};
  {| cases := [(97,122,2)]; dflt := -1 |} ].
Example ex_checker_accepts : bisim_check ex_rows [0;2;2;-1;3] ex_g 100 = true.
Proof. vm_compute. reflexivity. Qed.
(** a wrong action table (the keyword state accepts as identifier) is rejected *)
Example ex_checker_rejects : bisim_check ex_rows [0;2;2;-1;2] ex_g 100 = false.
Proof. vm_compute. reflexivity. Qed.
(** "if ifx ?i": keyword, identifier, INVALID, identifier, end of input *)
Example ex_tokens :
  option_map (fun r => map (fun t => (ty t, lit t)) (fst r)) (dscan_n ex_g 5 (init [105;102;32;105;102;120;32;63;105]))
  = Some [(3, [105;102]); (2, [105;102;120]); (0, [63]); (2, [105]); (1, [])].
Proof. vm_compute. reflexivity. Qed.
(** macro semantics on the known-finding grammar  n : _d {_d} 'y' ; _d : '0' ['1'] ;  "00y" is one token *)
Example ex_macro :
  option_map (fun r => map (fun t => (ty t, lit t)) (fst r))
    (dscan_n {| regdefs := [ [[Chr 48; Opt [[Chr 49]]]] ];
                toks := [ (Tok 2 false, [[Ref 0; Rep [[Ref 0]]; Chr 121]]) ] |} 2 (init [48;48;121]))
  = Some [(2, [48;48;121]); (1, [])].
Proof. vm_compute. reflexivity. Qed.
(** contextual dot:  s : '"' { . } '"'  — the dot does not match the quote: "AB""" is two tokens *)
Example ex_dot :
  option_map (fun r => map (fun t => (ty t, lit t)) (fst r))
    (dscan_n {| regdefs := []; toks := [ (Tok 2 false, [[Chr 34; Rep [[Dot]]; Chr 34]]) ] |} 2 (init [34;65;66;34;34;34]))
  = Some [(2, [34;65;66;34]); (2, [34;34])].
Proof. vm_compute. reflexivity. Qed.
(** a recursive regular definition is rejected *)
Example ex_recursive :
  dinit {| regdefs := [ [[Ref 1]]; [[Chr 1; Ref 0]] ]; toks := [ (Tok 2 false, [[Ref 0]]) ] |} = None.
Proof. vm_compute. reflexivity. Qed.

(** (D) For EVERY lexical part: the model of gocc's lexer generator (Lex/LexGen.v: regular definitions inlined, items as
    positions of the patterns, e-closure, symbol classes by the verified AddRange, state numbering of ItemSets.Closure,
    ItemSet.Action) — compared on every run with the DFA gocc builds AND with the emitted tables, by structural
    equality (numbering, class order, targets, accept codes). *)

(** whatever DFA the model generator outputs tokenizes every input exactly as the lexical rules define
    (derivative semantics: macros, contextual '.', longest match, priorities), dots included *)
Theorem C01_every_grammar_generated_dfa_correct : forall g fuel rows acts,
  lexgen g fuel = Some (rows, acts) ->
  forall k l, Forall byte (rest l) -> scan_n decode_rune (table_dfa rows acts) k l = dscan_n g k l.
Proof. exact lexgen_correct. Qed.
Print Assumptions C01_every_grammar_generated_dfa_correct.

(** the generator is total on well-formed lexical parts (fuel bound: one more than 2 ^ #positions) ... *)
Theorem C01_every_grammar_generator_total : forall g fuel, lex_wf g = true -> (lex_fuel g <= fuel)%nat ->
  exists rows acts, lexgen g fuel = Some (rows, acts).
Proof. exact lexgen_total. Qed.
Print Assumptions C01_every_grammar_generator_total.

(** ... and rejects exactly the ill-formed ones: undefined or recursive regular definitions, empty ranges,
    patterns without alternative *)
Theorem C01_every_grammar_generator_rejects : forall g, lexgen g (lex_fuel g) = None <-> lex_wf g = false.
Proof. exact lexgen_None_iff. Qed.
Print Assumptions C01_every_grammar_generator_rejects.

Theorem C01_lex_wf_spec : forall g,
  lex_wf g = match expand g with
             | None => false
             | Some kps => forallb (fun kp => wf_p (snd kp)) kps
             end.
Proof. exact lex_wf_spec. Qed.
Print Assumptions C01_lex_wf_spec.

(** (E) From the BYTES of the grammar file to the lexical part.  [Front/LexAst.v] is the model of the front end's handling of
    the lexical part: the token list of the scanner model is cut into definitions, each body is parsed by a structurally
    recursive pattern parser (no fuel), character literals are decoded by the [LitToRune] model, token numbers come from the
    terminal-numbering model.  On every run its output on the bytes of each grammar file is compared with the AST gocc
    parsed; composed with (D) this ties the whole path file -> DFA to the model.  The parser is a left inverse of the
    printer on every well-formed pattern (brackets, ranges, references, non-ASCII characters included): no well-formed
    pattern is mis-parsed, refused or confused with another. *)
Require Gocc.Front.LexAst Gocc.Front.LexAstProofs.
Theorem C01_front_end_pattern_parser_round_trip : forall regs (p : Pattern.pattern),
  Gocc.Front.LexAstProofs.wf_pattern regs p = true ->
  Gocc.Front.LexAst.parse_pattern Gocc.Front.Sem.shipped_ftypes Gocc.Front.LexAst.shipped_ltypes regs
    (Gocc.Front.LexAstProofs.print_pattern_ftok regs p) = Some p.
Proof. exact Gocc.Front.LexAstProofs.parse_pattern_print. Qed.
Print Assumptions C01_front_end_pattern_parser_round_trip.
