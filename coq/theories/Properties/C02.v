(** C02 — the generated parser accepts exactly the language of a conflict-free grammar.
    Only property theorems (closed by [exact]/[apply] of library lemmas) and examples.

    The theorems hold for EVERY grammar [g], tables [tb] and (untrusted) annotation [an] that
    pass the boolean validator; on every run the validator is evaluated by the Coq kernel
    ([vm_compute]) on the tables gocc actually emitted for each grammar of the run, which
    instantiates the theorems to gocc's own output, for all token sequences. *)
From Coq Require Import List Arith ZArith Lia Bool.
From Gocc Require Import LR.Parse LR.Validate LR.Trees LR.Eval LR.Sound LR.Complete LR.Exact LR.ErrorPos LR.Canonical LR.Gen LR.GenProofs.
Import ListNotations.

(** [input] is a sentence: a parse tree of the start symbol (the single body symbol of
    production 0) whose yield is exactly the token sequence. An 'empty' alternative is a
    production with an empty body, deriving the empty string. *)
Definition sentence (g : grammar) (input : list token) : Prop :=
  exists pr0 X0 t, nth_error g 0 = Some pr0 /\ rhs pr0 = [X0] /\ wt g X0 t input.

(** "only if": a nil error implies a sentence (for every amount of fuel, every actions). *)
Theorem C02_accept_implies_sentence : forall g tb an sem input fuel v,
  valid_backward g tb an = true -> no_error_shift tb = true ->
  Forall (fun t => ttype t <> EOFT) input -> Forall (fun t => ttype t < nterms tb) input ->
  r_out (parse tb sem input fuel) = POk v -> sentence g input.
Proof.
  intros g tb an sem input fuel v HV HN HI HR Hok.
  destruct (good_result_ok g tb sem input _ v (parse_sound_valid g tb an sem input fuel HV HN HI HR) Hok)
    as (t & pr0 & X0 & c & H0 & H1 & H2 & _).
  exists pr0, X0, t. auto.
Qed.
Print Assumptions C02_accept_implies_sentence.

(** "if": every sentence is accepted, within an explicit number of steps (tree size + 1);
    actions are assumed not to fail (a failing action is the subject of C03). *)
Theorem C02_sentence_implies_accept : forall g tb an sem input,
  valid_forward g tb an = true -> (forall i p kids, sem i p kids <> None) ->
  forall pr0 X0 t, nth_error g 0 = Some pr0 -> rhs pr0 = [X0] -> wt g X0 t input ->
  forall fuel, size t + 1 <= fuel -> exists v, r_out (parse tb sem input fuel) = POk v.
Proof. exact lr_complete. Qed.
Print Assumptions C02_sentence_implies_accept.

(** Parse never panics (no index out of range, no failed type assertion, no missing goto). *)
Theorem C02_no_panic : forall g tb an sem input fuel c,
  valid_backward g tb an = true -> no_error_shift tb = true ->
  Forall (fun t => ttype t <> EOFT) input -> Forall (fun t => ttype t < nterms tb) input ->
  r_out (parse tb sem input fuel) <> PPanic c.
Proof.
  intros g tb an sem input fuel c HV HN HI HR.
  exact (good_result_no_panic g tb sem input _ c (parse_sound_valid g tb an sem input fuel HV HN HI HR)).
Qed.
Print Assumptions C02_no_panic.

(** Parse terminates on every token sequence: sentences within tree size + 1 steps (above); in general
    for tables that additionally pass the canonicity checks [x_checks] (exact nullable/FIRST, justified
    closure items, reachable nonterminals productive — grammars whose reachable part is unproductive have
    no sentences at all and are covered by the correspondence run only). *)
Theorem C02_parse_terminates : forall g tb an sem,
  lr_valid g tb an = true -> x_checks g tb an = true ->
  (forall i p kids, sem i p kids <> None) ->
  forall pr0 X0, nth_error g 0 = Some pr0 -> rhs pr0 = [X0] ->
  forall input, Forall (fun t => ttype t <> EOFT) input ->
  exists fuel0, forall fuel, fuel0 <= fuel -> r_out (parse tb sem input fuel) <> PFuel.
Proof. exact C02_terminates. Qed.
Print Assumptions C02_parse_terminates.

(** FOR EVERY GRAMMAR, without any per-grammar evaluation: [gen_all] is an executable Gallina model of gocc's
    generator (FIRST sets, Closure, Goto, the state worklist in gocc's order, table cells) whose output is
    compared with gocc's own item sets / transitions / compiled tables on every run (same state numbering, same
    item order).  Whatever it outputs satisfies the theorems above; it outputs tables exactly when the grammar
    has no canonical LR(1) conflict. *)
Theorem C02_every_grammar_accept_implies_sentence :
  forall g nn ntm symbols la_order p_acts terr fuel tb an tr,
  gen_all g nn ntm symbols la_order p_acts terr fuel = Some (tb, an, tr) ->
  forall sem input fuel' v, no_err_in_bodies g terr = true ->
  Forall (fun t => ttype t <> EOFT) input -> Forall (fun t => ttype t < ntm) input ->
  r_out (parse tb sem input fuel') = POk v ->
  exists pr0 X0 t, nth_error g 0 = Some pr0 /\ rhs pr0 = [X0] /\ wt g X0 t input.
Proof. exact gen_accept_implies_sentence. Qed.
Print Assumptions C02_every_grammar_accept_implies_sentence.

Theorem C02_every_grammar_sentence_implies_accept :
  forall g nn ntm symbols la_order p_acts terr fuel tb an tr,
  gen_all g nn ntm symbols la_order p_acts terr fuel = Some (tb, an, tr) ->
  forall sem input, (forall i p kids, sem i p kids <> None) ->
  forall pr0 X0 t, nth_error g 0 = Some pr0 -> rhs pr0 = [X0] -> wt g X0 t input ->
  forall fuel', size t + 1 <= fuel' -> exists v, r_out (parse tb sem input fuel') = POk v.
Proof. exact gen_sentence_implies_accept. Qed.
Print Assumptions C02_every_grammar_sentence_implies_accept.

Theorem C02_generator_succeeds_iff_LR1 : forall g nn ntm symbols la_order p_acts terr fuel,
  gen_wf g nn ntm symbols la_order terr = true -> 2 ^ length (item_universe g la_order) < fuel ->
  ((exists tb an tr, gen_run g nn ntm symbols la_order p_acts terr fuel = GenOk tb an tr) <-> ~ canonical_conflict g).
Proof. exact gen_succeeds_iff_lr1. Qed.
Print Assumptions C02_generator_succeeds_iff_LR1.

(** Non-vacuity: S' -> S ; S -> a S | b   with hand-made canonical tables; "a a b" is accepted. *)
Definition ex_g : grammar :=
  [ {| lhs := 0; rhs := [NT 1] |}; {| lhs := 1; rhs := [T 2; NT 1] |}; {| lhs := 1; rhs := [T 3] |} ].
Definition ex_tb : tables := {|
  t_states := [
    {| s_actions := [None; None; Some (Shift 2); Some (Shift 3)]; s_recover := false; s_gotos := [(-1)%Z; 1%Z] |};
    {| s_actions := [None; Some Accept; None; None]; s_recover := false; s_gotos := [(-1)%Z; (-1)%Z] |};
    {| s_actions := [None; None; Some (Shift 2); Some (Shift 3)]; s_recover := false; s_gotos := [(-1)%Z; 4%Z] |};
    {| s_actions := [None; Some (Reduce 2); None; None]; s_recover := false; s_gotos := [(-1)%Z; (-1)%Z] |};
    {| s_actions := [None; Some (Reduce 1); None; None]; s_recover := false; s_gotos := [(-1)%Z; (-1)%Z] |} ];
  t_prods := [ {| p_nt := 0; p_len := 1; p_act := false |}; {| p_nt := 1; p_len := 2; p_act := true |};
               {| p_nt := 1; p_len := 1; p_act := true |} ];
  t_err := 0; t_gate := false |}.
Definition ex_an : annot := {|
  a_items := [ [(0,0,1); (1,0,1); (2,0,1)]; [(0,1,1)]; [(1,1,1); (1,0,1); (2,0,1)]; [(2,1,1)]; [(1,2,1)] ];
  a_nullable := [false; false];
  a_first := [[2; 3]; [2; 3]] |}.
Example C02_example_valid : lr_valid ex_g ex_tb ex_an = true.
Proof. vm_compute. reflexivity. Qed.
Example C02_example_run :
  r_out (parse ex_tb (sem_node None) [ {| ttype := 2; tid := 0 |}; {| ttype := 2; tid := 1 |}; {| ttype := 3; tid := 2 |} ] 20)
  = POk (ANode 1 [ATok {| ttype := 2; tid := 0 |};
                  ANode 1 [ATok {| ttype := 2; tid := 1 |}; ANode 2 [ATok {| ttype := 3; tid := 2 |}]]]).
Proof. vm_compute. reflexivity. Qed.

(** From the BYTES of the grammar file to the generator's input.  [Front/SynAst.v] is the model of what gocc's front end hands
    to the LR(1) generator: numbered productions (S' first), the symbol order, the terminal numbering, the look-ahead order
    (terminals sorted by the bytes of their names), which alternatives carry an action, the number of the error terminal.
    On every run of C02/C04/C05 its output on the bytes of each grammar file is compared with gocc's symbol table and
    productions, so the generator model is compared with gocc from the file to the tables.  Whatever the file: every symbol
    number is in range, and the look-ahead order is a permutation of the terminal numbers sorted by name. *)
Require Gocc.Front.SynAst Gocc.Front.SynAstProofs.
Theorem C02_front_end_generator_input_in_range : forall toks gi,
  Gocc.Front.SynAst.gen_input_of_tokens toks = Some gi ->
  Forall (Gocc.Front.SynAstProofs.prod_ok (Gocc.Front.SynAst.gi_nn gi) (Gocc.Front.SynAst.gi_ntm gi)) (Gocc.Front.SynAst.gi_g gi).
Proof. exact Gocc.Front.SynAstProofs.gen_input_bounds_shipped. Qed.
Print Assumptions C02_front_end_generator_input_in_range.

Theorem C02_front_end_lookahead_order : forall ft sdt toks gi,
  Gocc.Front.SynAst.gen_input_of_tokens_ft ft sdt toks = Some gi ->
  Permutation.Permutation (Gocc.Front.SynAst.gi_la gi) (seq 0 (Gocc.Front.SynAst.gi_ntm gi)) /\
  Sorted.StronglySorted (fun i j => Gocc.Front.SynAst.name_leb
      (Gocc.Front.SynAstProofs.name_at (Gocc.Front.SynAst.gi_tnames gi) i)
      (Gocc.Front.SynAstProofs.name_at (Gocc.Front.SynAst.gi_tnames gi) j) = true) (Gocc.Front.SynAst.gi_la gi).
Proof.
  intros ft sdt toks gi H. split.
  - exact (Gocc.Front.SynAstProofs.gi_la_perm ft sdt toks gi H).
  - exact (Gocc.Front.SynAstProofs.gi_la_sorted ft sdt toks gi H).
Qed.
Print Assumptions C02_front_end_lookahead_order.
