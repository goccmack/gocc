(** Independent objects over shared immutable data: any interleaving of their steps gives every
    object exactly the state (results included) it reaches when run alone (C17, model level). *)
From Coq Require Import List Arith.
Import ListNotations.

Lemma iter_shift {A} (f : A -> A) : forall n x, Nat.iter (S n) f x = Nat.iter n f (f x).
Proof. induction n as [|n IH]; intros x; [reflexivity|]. simpl in *. rewrite IH. reflexivity. Qed.

Section Interleave.
Variables (T O : Type).
Variable step : T -> O -> O.     (* one step of an object: reads the shared tables, writes only itself *)

Fixpoint upd (i : nat) (f : O -> O) (s : list O) : list O :=
  match s, i with
  | [], _ => []
  | o :: r, 0 => f o :: r
  | o :: r, S j => o :: upd j f r
  end.

(** a schedule is the sequence of object indices that take a step *)
Definition run_sched (t : T) (sch : list nat) (s : list O) : list O :=
  fold_left (fun s i => upd i (step t) s) sch s.

Definition steps_of (i : nat) (sch : list nat) : nat := count_occ Nat.eq_dec sch i.

Lemma nth_upd_same i f s o : nth_error s i = Some o -> nth_error (upd i f s) i = Some (f o).
Proof.
  revert i. induction s as [|x s IH]; intros [|i] H; simpl in *; try discriminate.
  - inversion H; reflexivity.
  - apply IH; exact H.
Qed.

Lemma nth_upd_other i j f s : i <> j -> nth_error (upd i f s) j = nth_error s j.
Proof.
  revert i j. induction s as [|x s IH]; intros [|i] [|j] H; simpl; try reflexivity; try congruence.
  apply IH. congruence.
Qed.

Lemma upd_length i f s : length (upd i f s) = length s.
Proof. revert i. induction s as [|x s IH]; intros [|i]; simpl; auto. Qed.

Lemma run_sched_length t sch : forall s, length (run_sched t sch s) = length s.
Proof. induction sch as [|j sch IH]; intros s; simpl; [reflexivity|]. rewrite IH. apply upd_length. Qed.

Theorem interleaving_irrelevant : forall t sch s i o,
  nth_error s i = Some o ->
  nth_error (run_sched t sch s) i = Some (Nat.iter (steps_of i sch) (step t) o).
Proof.
  intros t sch. induction sch as [|j sch IH]; intros s i o H; simpl.
  - exact H.
  - unfold steps_of in *. simpl. destruct (Nat.eq_dec j i) as [->|Hne].
    + rewrite (IH _ _ _ (nth_upd_same i (step t) s o H)), <- iter_shift. reflexivity.
    + apply IH. rewrite nth_upd_other by exact Hne. exact H.
Qed.

Corollary schedules_equivalent : forall t sch sch' s,
  (forall i, steps_of i sch = steps_of i sch') ->
  forall i, nth_error (run_sched t sch s) i = nth_error (run_sched t sch' s) i.
Proof.
  intros t sch sch' s Hc i. destruct (nth_error s i) as [o|] eqn:E.
  - rewrite (interleaving_irrelevant t sch s i o E), (interleaving_irrelevant t sch' s i o E), Hc. reflexivity.
  - apply nth_error_None in E.
    rewrite (proj2 (nth_error_None _ _)), (proj2 (nth_error_None _ _)); [reflexivity| |];
      rewrite run_sched_length; exact E.
Qed.
End Interleave.
