(** The token TYPES the front-end scanner model produces, and the source-level form of the front-end theorems: every
    token [FScan.fscan_all] returns has a type in  -1 .. [max_ftype]  (= 21, the largest number of
    token.FRONTENDTokens; -1 is ILLEGAL), so the two hypotheses of [SemTop.front_accepts_sound] on the token list (no
    EOF token; every terminal number below [nterms tb]) reduce to the single numeric condition
    max_ftype + 1 < nterms tb.  [Sem.front_accepts] (and [SemRange.front_accepts_r]) read only the types and the
    literals of the tokens, not their positions: inserting or deleting layout at the places covered by
    FScanProofs.layout_insert / layout_insert_in_layout / toks_layout does not change the verdict of the whole
    front-end model. *)
From Coq Require Import List Arith ZArith Lia Bool.
From Gocc Require Import LR.Parse LR.Validate LR.Trees
  Front.FScan Front.FScanProofs Front.Sem Front.SemProofs Front.SemTop Front.SemRange.
Import ListNotations.
Local Open Scope Z_scope.

(** the largest type number the scanner can produce: string_lit, the last entry of token.FRONTENDTokens *)
Definition max_ftype : Z := 21.

Lemma max_ftype_eq : max_ftype = 21.
Proof. reflexivity. Qed.

(** it is the numbering the semantic model ships with *)
Lemma max_ftype_shipped : max_ftype = ft_string_lit shipped_ftypes.
Proof. reflexivity. Qed.

(** and it is attained: the source  ""  is one string_lit *)
Example max_ftype_attained : map f_type (fst (fscan_all [34; 34])) = [max_ftype; 0].
Proof. vm_compute. reflexivity. Qed.

Lemma scan_type : forall F fuel st t st', scan F fuel st = Some (t, st') -> -1 <= f_type t <= max_ftype.
Proof.
  intros F fuel st t st' H. apply scan_spec in H. destruct H as (st0 & _ & ty & -> & R & _). exact R.
Qed.

Lemma scan_all_types : forall F fuel st ts st', scan_all F fuel st = Some (ts, st') ->
  Forall (fun t => -1 <= f_type t <= max_ftype) ts.
Proof.
  intros F. induction fuel as [|f IH]; intros st ts st' H; [discriminate|].
  destruct (scan_all_S _ _ _ _ _ H) as (t & st1 & S1 & [(_ & -> & _) | (_ & ts2 & S2 & ->)]); apply scan_type in S1.
  - constructor; [exact S1 | constructor].
  - constructor; [exact S1 | eapply IH; exact S2].
Qed.

Theorem fscan_all_types : forall src ts e, fscan_all src = (ts, e) ->
  Forall (fun t => -1 <= f_type t <= max_ftype) ts.
Proof.
  intros src ts e H. apply fscan_all_inv in H. destruct H as (st' & H).
  exact (scan_all_types _ _ _ _ _ H).
Qed.

(** the same with the number written out *)
Corollary fscan_all_types_21 : forall src ts e, fscan_all src = (ts, e) ->
  Forall (fun t => -1 <= f_type t <= 21) ts.
Proof. exact fscan_all_types. Qed.

Lemma strip_eof_no_eof : forall ts, Forall (fun t => f_type t <> 0) (strip_eof ts).
Proof.
  intro ts. apply Forall_forall. intros t I. unfold strip_eof in I. apply filter_In in I.
  destruct I as [_ I]. apply negb_true_iff, Z.eqb_neq in I. exact I.
Qed.

Lemma strip_eof_Forall : forall (P : ftok -> Prop) ts, Forall P ts -> Forall P (strip_eof ts).
Proof.
  intros P ts H. rewrite Forall_forall in *. intros t I. unfold strip_eof in I. apply filter_In in I.
  apply H. tauto.
Qed.

(** the token list handed to the parser and to the semantic checks *)
Theorem src_toks_types : forall src,
  Forall (fun t => 1 <= f_type t <= max_ftype \/ f_type t = -1) (strip_eof (fst (fscan_all src))).
Proof.
  intro src. destruct (fscan_all src) as [ts e] eqn:E. cbn [fst].
  pose proof (strip_eof_Forall _ _ (fscan_all_types _ _ _ E)) as H1. pose proof (strip_eof_no_eof ts) as H2.
  rewrite Forall_forall in *. intros t I. specialize (H1 t I). specialize (H2 t I). cbv beta in H1. lia.
Qed.

(** in the parser model's numbering (type + 1; ILLEGAL = -1 is terminal 0 = INVALID) *)
Theorem src_toks_terminals : forall src n, (Z.to_nat (max_ftype + 1) < n)%nat ->
  Forall (fun t => (Z.to_nat (f_type t + 1) < n)%nat) (strip_eof (fst (fscan_all src))).
Proof.
  intros src n Hn. eapply Forall_impl; [|apply src_toks_types]. intros t H. cbv beta in H.
  unfold max_ftype in *. lia.
Qed.

Theorem front_accepts_src_sound : forall ft g tb an sf src fuel,
  valid_backward g tb an = true ->
  t_gate tb = true -> forallb (fun r => negb (s_recover r)) (t_states tb) = true ->
  (0 <= ft_colon ft)%Z -> (0 <= ft_semi ft)%Z ->
  cut_ok g (Z.to_nat (ft_colon ft + 1)) (Z.to_nat (ft_semi ft + 1)) sf = true ->
  (Z.to_nat (max_ftype + 1) < nterms tb)%nat ->
  front_accepts_src ft tb fuel src = true ->
  let toks := strip_eof (fst (fscan_all src)) in
  sem_wf ft toks /\
  exists t pr0 X0, nth_error g 0 = Some pr0 /\ rhs pr0 = [X0] /\ wt g X0 t (to_ptoks 0 toks) /\
    defs_tree g (Z.to_nat (ft_colon ft + 1)) t = map (pmap mk) (tagged_defs ft toks) /\
    defs ft toks = map (pmap snd) (tagged_defs ft toks).
Proof.
  intros ft g tb an sf src fuel HV HG HN Hc Hs CO HT H toks.
  apply (front_accepts_sound ft g tb an sf toks fuel HV HG HN Hc Hs CO).
  - apply strip_eof_no_eof.
  - apply src_toks_terminals. exact HT.
  - exact H.
Qed.

Theorem front_cut_faithful_src : forall ft g tb an sf src fuel,
  valid_backward g tb an = true ->
  t_gate tb = true -> forallb (fun r => negb (s_recover r)) (t_states tb) = true ->
  (0 <= ft_colon ft)%Z -> (0 <= ft_semi ft)%Z ->
  cut_ok g (Z.to_nat (ft_colon ft + 1)) (Z.to_nat (ft_semi ft + 1)) sf = true ->
  (Z.to_nat (max_ftype + 1) < nterms tb)%nat ->
  let toks := strip_eof (fst (fscan_all src)) in
  parse_ok tb fuel toks = true ->
  exists t pr0 X0, nth_error g 0 = Some pr0 /\ rhs pr0 = [X0] /\ wt g X0 t (to_ptoks 0 toks) /\
    defs_tree g (Z.to_nat (ft_colon ft + 1)) t = map (pmap mk) (tagged_defs ft toks) /\
    defs ft toks = map (pmap snd) (tagged_defs ft toks).
Proof.
  intros ft g tb an sf src fuel HV HG HN Hc Hs CO HT toks H.
  apply (front_cut_faithful ft g tb an sf toks fuel HV HG HN Hc Hs CO).
  - apply strip_eof_no_eof.
  - apply src_toks_terminals. exact HT.
  - exact H.
Qed.

Definition norm (t : ftok) : ftok :=
  {| f_type := f_type t; f_lit := f_lit t; f_off := 0; f_line := 0; f_col := 0 |}.

Lemma strip_eq_norm_eq : forall a b,
  map FScanProofs.strip a = map FScanProofs.strip b -> map norm a = map norm b.
Proof.
  intros a b H.
  apply (f_equal (map (fun p => {| f_type := fst p; f_lit := snd p; f_off := 0; f_line := 0; f_col := 0 |}))) in H.
  rewrite !map_map in H. exact H.
Qed.

Lemma to_ptoks_norm : forall toks i, to_ptoks i (map norm toks) = to_ptoks i toks.
Proof. induction toks as [|t r IH]; intro i; cbn [map to_ptoks]; [reflexivity|]. rewrite IH. reflexivity. Qed.

Lemma parse_ok_norm : forall tb fuel toks, parse_ok tb fuel (map norm toks) = parse_ok tb fuel toks.
Proof. intros. unfold parse_ok. rewrite to_ptoks_norm. reflexivity. Qed.

Section Ext.
Variable ft : ftypes.

Lemma defs_norm : forall toks, defs ft (map norm toks) = map (pmap norm) (defs ft toks).
Proof. intro toks. unfold defs. rewrite defs_gen_map. reflexivity. Qed.

Lemma filter_is_ty_norm : forall ty l, map f_lit (filter (is_ty ty) (map norm l)) = map f_lit (filter (is_ty ty) l).
Proof.
  intros ty l. induction l as [|t r IH]; [reflexivity|]. cbn [map filter].
  change (is_ty ty (norm t)) with (is_ty ty t). destruct (is_ty ty t); cbn [map]; rewrite IH; reflexivity.
Qed.

Lemma refs_of_norm : forall body, refs_of ft (map norm body) = refs_of ft body.
Proof. intro body. apply filter_is_ty_norm. Qed.

Lemma lex_defs_of_norm : forall ds, lex_defs_of ft (map (pmap norm) ds) = lex_defs_of ft ds.
Proof.
  induction ds as [|[h body] t IH]; [reflexivity|]. cbn [map]. unfold pmap at 1. cbn [fst snd lex_defs_of].
  change (lex_kind ft (norm h)) with (lex_kind ft h). rewrite IH, refs_of_norm. reflexivity.
Qed.

Lemma lex_defs_norm : forall toks, lex_defs ft (map norm toks) = lex_defs ft toks.
Proof. intro toks. unfold lex_defs. rewrite defs_norm. apply lex_defs_of_norm. Qed.

Lemma syn_defs_of_norm : forall ds, syn_defs_of ft (map (pmap norm) ds) = map (pmap norm) (syn_defs_of ft ds).
Proof.
  induction ds as [|[h body] t IH]; [reflexivity|]. cbn [map]. unfold pmap at 1. cbn [fst snd syn_defs_of].
  change (is_ty (ft_prodId ft) (norm h)) with (is_ty (ft_prodId ft) h).
  destruct (is_ty (ft_prodId ft) h); cbn [map]; rewrite IH; reflexivity.
Qed.

Lemma symbols_of_norm : forall a, symbols_of ft (map norm a) = symbols_of ft a.
Proof.
  induction a as [|t r IH]; [reflexivity|]. cbn [map symbols_of].
  change (sym_of_tok ft (norm t)) with (sym_of_tok ft t). rewrite IH. reflexivity.
Qed.

Lemma split_at_norm : forall ty l,
  split_at (is_ty ty) (map norm l) = map (map norm) (split_at (is_ty ty) l).
Proof.
  intros ty l. induction l as [|x t IH]; [reflexivity|]. cbn [map split_at].
  change (is_ty ty (norm x)) with (is_ty ty x). rewrite IH. destruct (is_ty ty x); [reflexivity|].
  destruct (split_at (is_ty ty) t); reflexivity.
Qed.

Lemma alts_of_def_norm : forall d, alts_of_def ft (pmap norm d) = alts_of_def ft d.
Proof.
  intros [h body]. unfold alts_of_def, pmap. cbn [fst snd]. rewrite split_at_norm, map_map.
  apply map_ext. intro a. rewrite symbols_of_norm. reflexivity.
Qed.

Lemma prod_alts_norm : forall toks, prod_alts ft (map norm toks) = prod_alts ft toks.
Proof.
  intro toks. unfold prod_alts. rewrite defs_norm, syn_defs_of_norm.
  induction (syn_defs_of ft (defs ft toks)) as [|d l IH]; [reflexivity|].
  cbn [map flat_map]. rewrite alts_of_def_norm, IH. reflexivity.
Qed.

Lemma sem_check_norm : forall toks, sem_check ft (map norm toks) = sem_check ft toks.
Proof.
  intro toks. unfold sem_check, check_consistent, tok_defs, reg_defs, lex_ids, str_uses, prod_uses, prod_heads, aug_alts.
  rewrite !lex_defs_norm, !prod_alts_norm. reflexivity.
Qed.

Lemma sem_verdict_norm : forall toks, sem_verdict ft (map norm toks) = sem_verdict ft toks.
Proof. intro toks. unfold sem_verdict. rewrite sem_check_norm. reflexivity. Qed.

Lemma front_accepts_norm : forall tb fuel toks, front_accepts ft tb fuel (map norm toks) = front_accepts ft tb fuel toks.
Proof. intros. unfold front_accepts. rewrite parse_ok_norm, sem_verdict_norm. reflexivity. Qed.

Theorem sem_verdict_ext : forall a b,
  map (fun t => (f_type t, f_lit t)) a = map (fun t => (f_type t, f_lit t)) b ->
  sem_verdict ft a = sem_verdict ft b.
Proof.
  intros a b H. rewrite <- (sem_verdict_norm a), <- (sem_verdict_norm b), (strip_eq_norm_eq a b H). reflexivity.
Qed.

Theorem front_accepts_ext : forall tb fuel a b,
  map (fun t => (f_type t, f_lit t)) a = map (fun t => (f_type t, f_lit t)) b ->
  front_accepts ft tb fuel a = front_accepts ft tb fuel b.
Proof.
  intros tb fuel a b H.
  rewrite <- (front_accepts_norm tb fuel a), <- (front_accepts_norm tb fuel b), (strip_eq_norm_eq a b H). reflexivity.
Qed.

End Ext.

Lemma ranges_ok_norm : forall cl mn toks, ranges_ok cl mn (map norm toks) = ranges_ok cl mn toks.
Proof.
  intros cl mn. induction toks as [|a r IH]; [reflexivity|].
  destruct r as [|b [|c r']]; [reflexivity | reflexivity |].
  change (ranges_ok cl mn (map norm (a :: b :: c :: r'))) with
    (if is_t cl a && is_t mn b && is_t cl c && empty_range a c then false
     else ranges_ok cl mn (map norm (b :: c :: r'))).
  rewrite IH. reflexivity.
Qed.

Theorem front_accepts_r_ext : forall ft cl mn tb fuel a b,
  map (fun t => (f_type t, f_lit t)) a = map (fun t => (f_type t, f_lit t)) b ->
  front_accepts_r ft cl mn tb fuel a = front_accepts_r ft cl mn tb fuel b.
Proof.
  intros ft cl mn tb fuel a b H. unfold front_accepts_r. rewrite (front_accepts_ext ft tb fuel a b H).
  rewrite <- (ranges_ok_norm cl mn a), <- (ranges_ok_norm cl mn b), (strip_eq_norm_eq a b H). reflexivity.
Qed.

Lemma strip_eof_strip : forall ts,
  map FScanProofs.strip (strip_eof ts) = filter (fun p => negb (fst p =? 0)) (map FScanProofs.strip ts).
Proof.
  induction ts as [|t r IH]; [reflexivity|]. unfold strip_eof in *. cbn [map filter].
  change (fst (FScanProofs.strip t)) with (f_type t). destruct (negb (f_type t =? 0)); cbn [map]; rewrite IH; reflexivity.
Qed.

Theorem front_accepts_src_ext : forall ft tb fuel s1 s2,
  map FScanProofs.strip (fst (fscan_all s1)) = map FScanProofs.strip (fst (fscan_all s2)) ->
  front_accepts_src ft tb fuel s1 = front_accepts_src ft tb fuel s2.
Proof.
  intros ft tb fuel s1 s2 H. unfold front_accepts_src. apply front_accepts_ext.
  change (fun t => (f_type t, f_lit t)) with FScanProofs.strip. rewrite !strip_eof_strip, H. reflexivity.
Qed.

(** the hypotheses are those of FScanProofs.layout_insert *)
Theorem front_accepts_src_layout : forall ft tb fuel pre ws suf,
  nonneg (pre ++ ws ++ suf) -> is_layout ws -> boundary pre suf -> suf <> [] -> hard suf ->
  (ends_with_slash pre -> match ws with [] => True | w :: _ => is_blank w = true end) ->
  front_accepts_src ft tb fuel (pre ++ ws ++ suf) = front_accepts_src ft tb fuel (pre ++ suf).
Proof.
  intros ft tb fuel pre ws suf NN L B NS HS SL. apply front_accepts_src_ext.
  apply fscan_all_layout_insert; assumption.
Qed.

Theorem front_accepts_src_layout_in_layout : forall ft tb fuel pre L1 ws suf,
  nonneg (pre ++ L1 ++ ws ++ suf) -> is_layout L1 -> L1 <> [] -> is_layout ws -> boundary pre (L1 ++ suf) ->
  front_accepts_src ft tb fuel (pre ++ L1 ++ ws ++ suf) = front_accepts_src ft tb fuel (pre ++ L1 ++ suf).
Proof.
  intros ft tb fuel pre L1 ws suf NN LL1 NE L B. apply front_accepts_src_ext.
  apply fscan_all_layout_insert_in_layout; assumption.
Qed.

Theorem front_accepts_src_leading_layout : forall ft tb fuel ws suf,
  is_layout ws -> nonneg (ws ++ suf) ->
  front_accepts_src ft tb fuel (ws ++ suf) = front_accepts_src ft tb fuel suf.
Proof.
  intros ft tb fuel ws suf L NN. apply front_accepts_src_ext. apply fscan_all_leading_layout; assumption.
Qed.

(** the model with the character-range check is what the harness evaluates *)
Theorem front_accepts_r_src_layout : forall ft cl mn tb fuel pre ws suf,
  nonneg (pre ++ ws ++ suf) -> is_layout ws -> boundary pre suf -> suf <> [] -> hard suf ->
  (ends_with_slash pre -> match ws with [] => True | w :: _ => is_blank w = true end) ->
  front_accepts_r ft cl mn tb fuel (strip_eof (fst (fscan_all (pre ++ ws ++ suf)))) =
  front_accepts_r ft cl mn tb fuel (strip_eof (fst (fscan_all (pre ++ suf)))).
Proof.
  intros ft cl mn tb fuel pre ws suf NN L B NS HS SL. apply front_accepts_r_ext.
  change (fun t => (f_type t, f_lit t)) with FScanProofs.strip. rewrite !strip_eof_strip.
  rewrite (fscan_all_layout_insert pre ws suf NN L B NS HS SL). reflexivity.
Qed.

Print Assumptions fscan_all_types.
Print Assumptions strip_eof_no_eof.
Print Assumptions src_toks_types.
Print Assumptions front_accepts_src_sound.
Print Assumptions front_cut_faithful_src.
Print Assumptions front_accepts_ext.
Print Assumptions front_accepts_r_ext.
Print Assumptions front_accepts_src_ext.
Print Assumptions front_accepts_src_layout.
Print Assumptions front_accepts_src_layout_in_layout.
Print Assumptions front_accepts_src_leading_layout.
Print Assumptions front_accepts_r_src_layout.
