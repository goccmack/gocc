(** Proofs about the semantic front-end model Front/Sem.v.

    PART A.  [sem_verdict ft toks = SemOk <-> sem_wf ft toks], where [sem_wf] states declaratively (no reference to the
    checking code) what a grammar file must satisfy for gocc, as the code stands, to get past its semantic checks;
    corollaries in the shape asked for by property C14 ([sem_ok_facts]).

    PART B.  "followed by ':'" is the right notion of definition head: for every grammar [g] satisfying the boolean side
    condition [colon_ok g colon = true] (evaluated by the kernel on the spec grammar: obligation emitted by the harness),
    in EVERY parse tree of [g] the tokens of the yield that are immediately followed by a ':' token are exactly, in order,
    the first children of the definition nodes (nodes of productions  X : h ":" ...) ([heads_are_definition_heads]); under
    the stronger [cut_ok] the whole cut [defs_gen] is the list of definition nodes with the yields of their bodies
    ([cut_is_definition_nodes]). *)
From Coq Require Import List ZArith Bool Lia Arith Relations.
From Gocc Require Import Base.Utf8 LR.Parse LR.Trees Front.FUnicode Front.FScan Front.Sem.
From Gocc Require Front.TokMapProofs.
Import ListNotations.
Local Open Scope nat_scope.

(** [Sem.name_eqb] is convertible to [TokMap.zstr_eqb] *)
Lemma name_eqb_eq a b : name_eqb a b = true <-> a = b.
Proof. exact (TokMapProofs.zstr_eqb_eq a b). Qed.

Lemma name_eqb_refl a : name_eqb a a = true.
Proof. apply name_eqb_eq. reflexivity. Qed.

Lemma name_eqb_neq a b : name_eqb a b = false <-> a <> b.
Proof.
  split.
  - intros H E. apply name_eqb_eq in E. congruence.
  - intros H. destruct (name_eqb a b) eqn:E; [|reflexivity]. apply name_eqb_eq in E. contradiction.
Qed.

Lemma mem_In n l : mem n l = true <-> In n l.
Proof.
  induction l as [|m t IH]; simpl.
  - split; [discriminate|tauto].
  - rewrite orb_true_iff, IH, name_eqb_eq. split; intros [H|H]; auto.
Qed.

Lemma mem_false n l : mem n l = false <-> ~ In n l.
Proof.
  rewrite <- mem_In. destruct (mem n l); split; intro H; try reflexivity; try discriminate.
  exfalso. apply H. reflexivity.
Qed.

Lemma first_some_none {A B} (f : A -> option B) l :
  first_some f l = None <-> forall x, In x l -> f x = None.
Proof.
  induction l as [|x t IH]; simpl.
  - split; [intros _ y []|reflexivity].
  - destruct (f x) eqn:E.
    + split; [discriminate|]. intros H. specialize (H x (or_introl eq_refl)). congruence.
    + rewrite IH. split.
      * intros H y [<-|Hy]; auto.
      * intros H y Hy. apply H. right. exact Hy.
Qed.

Lemma find_first_some {A} (f : A -> bool) l : find f l = first_some (fun x => if f x then Some x else None) l.
Proof. induction l as [|x t IH]; simpl; [|destruct (f x)]; auto. Qed.

Lemma find_none_iff {A} (f : A -> bool) l : find f l = None <-> forall x, In x l -> f x = false.
Proof.
  rewrite find_first_some, first_some_none. split; intros H x Hx; specialize (H x Hx); destruct (f x); congruence.
Qed.

Lemma find_first_none {A B} (p : A -> bool) (g : A -> B) (rest : option B) l :
  match find p l with Some x => Some (g x) | None => rest end = None <-> (forall x, In x l -> p x = false) /\ rest = None.
Proof.
  rewrite <- find_none_iff. destruct (find p l); split; [discriminate|intros [[=] _]|auto|intros [_ H]; exact H].
Qed.

Lemma or_else_none {A} (c rest : option A) :
  match c with Some r => Some r | None => rest end = None <-> c = None /\ rest = None.
Proof. destruct c; split; [discriminate|intros [H _]; discriminate|auto|intros [_ H]; exact H]. Qed.

Lemma NoDup_map_filter {A B} (f : A -> B) (p : A -> bool) l : NoDup (map f l) -> NoDup (map f (filter p l)).
Proof.
  induction l as [|x t IH]; simpl; intro H; [constructor|].
  inversion H as [|? ? Hn Hd]; subst. destruct (p x); simpl; [|auto].
  constructor; [|auto]. intro Hin. apply Hn. apply in_map_iff in Hin. destruct Hin as (y & Hy & Hin).
  apply filter_In in Hin. apply in_map_iff. exists y. tauto.
Qed.

Lemma first_dup_none seen l :
  first_dup seen l = None <-> NoDup (map ld_id l) /\ forall x, In x (map ld_id l) -> ~ In x seen.
Proof.
  revert seen. induction l as [|d t IH]; intro seen; simpl.
  - split; [intros _; split; [constructor|intros x []]|reflexivity].
  - destruct (mem (ld_id d) seen) eqn:E.
    + split; [discriminate|]. intros [_ H]. apply mem_In in E. exfalso. exact (H _ (or_introl eq_refl) E).
    + apply mem_false in E. rewrite IH. split.
      * intros [Hnd H]. split.
        -- constructor; [|exact Hnd]. intro Hin. apply (H _ Hin). left. reflexivity.
        -- intros x [<-|Hx]; [exact E|]. intro Hs. apply (H _ Hx). right. exact Hs.
      * intros [Hnd H]. inversion Hnd as [|? ? Hn Hd]; subst. split; [exact Hd|].
        intros x Hx [<-|Hs]; [contradiction|]. apply (H x (or_intror Hx) Hs).
Qed.

(** the name starts with an upper-case letter in the sense of the scanner (unicode.IsUpper of the first rune) *)
Definition UpperInitial (n : name) : Prop := uni_upper (fst (decode_rune n)) = true.

Lemma upper_initial_iff n : upper_initial n = true <-> UpperInitial n.
Proof. unfold upper_initial, UpperInitial. tauto. Qed.

(** one alternative passes the per-alternative tests of [consistent] *)
Definition alt_ok (a : alt) : Prop :=
  snd a <> [] /\ fst a <> n_INVALID /\ forall s, In s (snd a) -> snd s <> n_INVALID /\ snd s <> n_EOF.

Lemma reserved_false n : reserved n = false <-> n <> n_INVALID /\ n <> n_EOF.
Proof. unfold reserved. rewrite orb_false_iff, !name_eqb_neq. tauto. Qed.

Lemma check_alt_none a : check_alt a = None <-> alt_ok a.
Proof.
  unfold check_alt, alt_ok. destruct (snd a) as [|s0 ss] eqn:Es.
  - split; [discriminate|]. intros [H _]. congruence.
  - destruct (name_eqb (fst a) n_INVALID) eqn:E.
    + split; [discriminate|]. intros (_ & H & _). apply name_eqb_eq in E. contradiction.
    + apply name_eqb_neq in E. split.
      * intro F. apply find_first_none in F as [F _]. split; [discriminate|]. split; [exact E|].
        intros s Hs. apply reserved_false, F, Hs.
      * intros (_ & _ & H). apply find_first_none. split; [|reflexivity]. intros s Hs. apply reserved_false, H, Hs.
Qed.

Lemma undefined_error_false defined n :
  undefined_error defined n = false <-> (UpperInitial n -> In n defined).
Proof.
  unfold undefined_error. rewrite <- upper_initial_iff. destruct (mem n defined) eqn:M; simpl.
  - apply mem_In in M. tauto.
  - apply mem_false in M. destruct (upper_initial n) eqn:U.
    + (* "empty" and "error" begin with a lower-case letter: for them [U] computes to [false = true] *)
      assert (E1 : name_eqb n n_empty = false).
      { apply name_eqb_neq. intro; subst. discriminate U. }
      assert (E2 : name_eqb n n_error = false).
      { apply name_eqb_neq. intro; subst. discriminate U. }
      rewrite E1, E2. simpl. split; [discriminate|]. intro H. exfalso. apply M, H. reflexivity.
    + rewrite andb_false_r. split; [intros _ H; discriminate H|reflexivity].
Qed.

Section A.
Variable ft : ftypes.
Variable toks : list ftok.

Definition consistent_ok : Prop :=
  (forall a, In a (aug_alts ft toks) -> alt_ok a) /\
  (forall p, UpperInitial p -> In p (prod_uses ft toks) -> In p (tok_defs ft toks ++ prod_heads ft toks)).

Lemma check_consistent_none : check_consistent ft toks = None <-> consistent_ok.
Proof.
  unfold check_consistent, consistent_ok. split.
  - intro H. apply or_else_none in H as [F U]. apply find_first_none in U as [U _]. rewrite first_some_none in F. split.
    + intros a Ha. apply check_alt_none, F, Ha.
    + intros p Hu Hp. exact (proj1 (undefined_error_false _ _) (U p Hp) Hu).
  - intros [H1 H2]. apply or_else_none. split; [apply first_some_none; intros a Ha; apply check_alt_none, H1, Ha|].
    apply find_first_none. split; [|reflexivity]. intros n Hn. apply undefined_error_false. intro Hu. exact (H2 n Hu Hn).
Qed.

Lemma check_regdef_refs_none regs :
  first_some (check_regdef_refs regs) (lex_defs ft toks) = None <-> forall r, In r (reg_uses ft toks) -> In r regs.
Proof.
  rewrite first_some_none. unfold reg_uses. split.
  - intros H r Hr. apply in_flat_map in Hr as (d & Hd & Hr). apply mem_In, negb_false_iff.
    exact (proj1 (proj1 (find_first_none _ _ _ _) (H d Hd)) r Hr).
  - intros H d Hd. apply find_first_none. split; [|reflexivity]. intros r Hr.
    apply negb_false_iff, mem_In, H, in_flat_map. eauto.
Qed.

End A.

(** no string literal of an alternative is the id of that alternative's production or of an earlier one *)
Definition strlit_prod_ok (seen : list name) (l : list alt) : Prop :=
  forall l1 a l2 s, l = l1 ++ a :: l2 -> In (KStr, s) (snd a) -> ~ In s (map fst (l1 ++ [a])) /\ ~ In s seen.

Lemma is_str_iff (s : ssym) : is_str s = true <-> s = (KStr, snd s).
Proof. destruct s as [[| |] n]; simpl; split; intro H; try discriminate; try reflexivity. Qed.

Lemma strlit_prod_ok_cons seen a t :
  strlit_prod_ok seen (a :: t) <->
  (forall s, In (KStr, s) (snd a) -> ~ In s (fst a :: seen)) /\ strlit_prod_ok (fst a :: seen) t.
Proof.
  unfold strlit_prod_ok. split.
  - intro H. split.
    + intros s Hs. destruct (H [] a t s eq_refl Hs) as [H1 H2]. intros [X|X]; [apply H1; left; exact X|exact (H2 X)].
    + intros l1 b l2 s -> Hs. destruct (H (a :: l1) b l2 s eq_refl Hs) as [H1 H2].
      split; [intro X; apply H1; right; exact X|intros [X|X]; [apply H1; left; exact X|exact (H2 X)]].
  - intros [Ha Ht] l1 b l2 s E Hs. destruct l1 as [|a' l1]; injection E as <- ->.
    + split; intro X; apply (Ha s Hs); [destruct X as [X|[]]; left; exact X|right; exact X].
    + destruct (Ht l1 b l2 s eq_refl Hs) as [H1 H2].
      split; [intros [X|X]; [apply H2; left; exact X|exact (H1 X)]|intro X; apply H2; right; exact X].
Qed.

Lemma check_strlit_prod_none seen l : check_strlit_prod seen l = None <-> strlit_prod_ok seen l.
Proof.
  revert seen. induction l as [|a t IH]; intro seen; cbn [check_strlit_prod].
  - split; [|reflexivity]. intros _ l1 a l2 s H. destruct l1; discriminate.
  - rewrite find_first_none, IH, strlit_prod_ok_cons. apply and_iff_compat_r. split; intros H x Hx.
    + apply mem_false. exact (H (KStr, x) Hx).
    + destruct x as [[| |] n]; try reflexivity. apply (proj2 (mem_false n (fst a :: seen))), H, Hx.
Qed.

Lemma check_strlit_tok_none lexids s : check_strlit_tok lexids s = None <-> s <> [] /\ ~ In s lexids.
Proof.
  unfold check_strlit_tok. destruct s as [|c r].
  - split; [discriminate|]. intros [H _]. congruence.
  - destruct (mem (c :: r) lexids) eqn:M.
    + apply mem_In in M. split; [discriminate|]. intros [_ H]. contradiction.
    + apply mem_false in M. split; [|reflexivity]. intros _. split; [discriminate|exact M].
Qed.

Section Cyc.
Variable env : list (name * list name).

Definition edge (r r' : name) : Prop := exists refs, lookup env r = Some refs /\ In r' refs.

Inductive expands : name -> Prop :=
| ex_undef r : lookup env r = None -> expands r
| ex_def r refs : lookup env r = Some refs -> (forall r', In r' refs -> expands r') -> expands r.

Lemma cyc_false_expands fuel : forall path r, cyc fuel env path r = false -> expands r.
Proof.
  induction fuel as [|f IH]; intros path r H; simpl in H.
  - destruct (lookup env r) eqn:L; [|apply ex_undef; exact L]. destruct (mem r path); discriminate.
  - destruct (lookup env r) as [refs|] eqn:L; [|apply ex_undef; exact L]. destruct (mem r path); [discriminate|].
    apply (ex_def r refs L). intros r' Hr. apply (IH (r :: path)).
    destruct (cyc f env (r :: path) r') eqn:C; [|reflexivity].
    assert (existsb (cyc f env (r :: path)) refs = true) by (apply existsb_exists; exists r'; auto). congruence.
Qed.

Lemma tc_snoc a b c : clos_trans_1n _ edge a b -> edge b c -> clos_trans_1n _ edge a c.
Proof.
  induction 1 as [a b H|a x b H H' IH]; intro E.
  - eapply Relation_Operators.t1n_trans; [exact H|]. apply t1n_step. exact E.
  - eapply Relation_Operators.t1n_trans; [exact H|]. apply IH. exact E.
Qed.

Lemma expands_irrefl r : expands r -> ~ clos_trans_1n _ edge r r.
Proof.
  induction 1 as [r L|r refs L Hx IH]; intro C.
  - inversion C as [y (refs & L' & _)|y z (refs & L' & _) _]; subst; congruence.
  - inversion C as [y (refs' & L' & Hy)|y z (refs' & L' & Hy) C']; subst.
    + rewrite L in L'. inversion L'; subst refs'. apply (IH r Hy). exact C.
    + rewrite L in L'. inversion L'; subst refs'. apply (IH y Hy).
      apply (tc_snoc y r y C'). exists refs. auto.
Qed.

Lemma expands_closed r x : expands r -> clos_refl_trans_1n _ edge r x -> expands x.
Proof.
  intros H C. induction C as [r|r y x (refs & L & Hy) C IH]; [exact H|].
  apply IH. inversion H as [r' L'|r' refs' L' Hx]; subst; [congruence|].
  rewrite L in L'. inversion L'; subst. auto.
Qed.

Lemma lookup_some_in r refs : lookup env r = Some refs -> In r (map fst env).
Proof.
  induction env as [|[n rf] t IH]; simpl; [discriminate|].
  destruct (name_eqb r n) eqn:E; [apply name_eqb_eq in E; auto|]. intro H. right. apply IH. exact H.
Qed.

(** the fuel [length env] is never exhausted: [path] consists of distinct ids of regular definitions, each reaching [r], and
    the fuel covers the definitions not yet on [path] *)
Lemma acyclic_cyc_false fuel : forall path r,
  NoDup path -> (forall p, In p path -> lookup env p <> None) -> length env <= length path + fuel ->
  (forall p, In p path -> clos_trans_1n _ edge p r) ->
  (forall x, clos_refl_trans_1n _ edge r x -> ~ clos_trans_1n _ edge x x) ->
  cyc fuel env path r = false.
Proof.
  induction fuel as [|f IH]; intros path r Hnd Hdef Hlen Hpath Hac; simpl;
    (destruct (lookup env r) as [refs|] eqn:L; [|reflexivity]);
    (destruct (mem r path) eqn:M;
     [apply mem_In in M; exfalso; exact (Hac r (rt1n_refl _ _ r) (Hpath r M))|apply mem_false in M]).
  - exfalso. (* [r :: path] are distinct ids of [env], one more than it has *)
    assert (Hi : incl (r :: path) (map fst env)).
    { intros p [<-|Hp]; [eapply lookup_some_in; eauto|].
      destruct (lookup env p) eqn:Lp; [eapply lookup_some_in; eauto|]. exfalso. exact (Hdef p Hp Lp). }
    pose proof (NoDup_incl_length (NoDup_cons r M Hnd) Hi) as Hl. rewrite map_length in Hl. simpl in Hl. lia.
  - destruct (existsb (cyc f env (r :: path)) refs) eqn:X; [|reflexivity].
    apply existsb_exists in X. destruct X as (r' & Hr' & C).
    assert (E : edge r r') by (exists refs; auto).
    rewrite IH in C; [discriminate| | | | |].
    + constructor; assumption.
    + intros p [<-|Hp]; [congruence|auto].
    + simpl. lia.
    + intros p [<-|Hp]; [apply t1n_step; exact E|]. apply (tc_snoc p r r'); auto.
    + intros x Cx. apply Hac. eapply Relation_Operators.rt1n_trans; eauto.
Qed.

Lemma cyc_fuel_enough r :
  cyc (length env) env [] r = false <-> (forall x, clos_refl_trans_1n _ edge r x -> ~ clos_trans_1n _ edge x x).
Proof.
  split.
  - intros H x C. apply expands_irrefl. eapply expands_closed; [|exact C]. eapply cyc_false_expands. exact H.
  - intros H. apply acyclic_cyc_false; [constructor | intros p [] | simpl; lia | intros p [] | exact H].
Qed.

End Cyc.

Section Graph.
Variable lds : list lexdef.

Definition regdef_edge (r r' : name) : Prop :=
  exists d, In d lds /\ ld_kind d = LReg /\ ld_id d = r /\ In r' (ld_refs d).

(** [r] is referred to by a token or ignored-token definition, directly or through regular definitions *)
Definition reg_reachable (r : name) : Prop :=
  exists d r0, In d lds /\ ld_kind d <> LReg /\ In r0 (ld_refs d) /\ clos_refl_trans_1n _ regdef_edge r0 r.

Definition regdefs_acyclic : Prop := forall r, reg_reachable r -> ~ clos_trans_1n _ regdef_edge r r.

Lemma lkind_eqb_eq a b : lkind_eqb a b = true <-> a = b.
Proof. destruct a, b; simpl; split; intro; try discriminate; reflexivity. Qed.

Lemma lookup_reg_env_in r refs :
  lookup (reg_env lds) r = Some refs -> exists d, In d lds /\ ld_kind d = LReg /\ ld_id d = r /\ ld_refs d = refs.
Proof.
  unfold reg_env. induction lds as [|d t IH]; simpl; [discriminate|].
  destruct (lkind_eqb (ld_kind d) LReg) eqn:K; simpl.
  - destruct (name_eqb r (ld_id d)) eqn:E.
    + intro H. inversion H; subst. apply name_eqb_eq in E. apply lkind_eqb_eq in K. exists d. auto.
    + intro H. destruct (IH H) as (d' & ? & ?). exists d'. auto.
  - intro H. destruct (IH H) as (d' & ? & ?). exists d'. auto.
Qed.

Lemma in_lookup_reg_env d :
  NoDup (map ld_id lds) -> In d lds -> ld_kind d = LReg -> lookup (reg_env lds) (ld_id d) = Some (ld_refs d).
Proof.
  unfold reg_env. induction lds as [|d0 t IH]; simpl; intros Hnd Hin K; [contradiction|].
  destruct Hin as [<-|Hin].
  - rewrite K. simpl. rewrite name_eqb_refl. reflexivity.
  - inversion Hnd as [|? ? Hn Hd]; subst. destruct (lkind_eqb (ld_kind d0) LReg); simpl; [|auto].
    destruct (name_eqb (ld_id d) (ld_id d0)) eqn:E; [|auto].
    apply name_eqb_eq in E. exfalso. apply Hn. rewrite <- E. apply in_map. exact Hin.
Qed.

Lemma edge_iff : NoDup (map ld_id lds) -> forall r r', edge (reg_env lds) r r' <-> regdef_edge r r'.
Proof.
  intros Hnd r r'. unfold edge, regdef_edge. split.
  - intros (refs & L & Hr). destruct (lookup_reg_env_in _ _ L) as (d & H1 & H2 & H3 & H4). exists d. subst. auto.
  - intros (d & H1 & H2 & H3 & H4). exists (ld_refs d). subst r. split; [apply in_lookup_reg_env; auto|exact H4].
Qed.

End Graph.

Lemma tc_mono {A} (R S : A -> A -> Prop) : (forall a b, R a b -> S a b) -> forall a b, clos_trans_1n _ R a b -> clos_trans_1n _ S a b.
Proof. intros H a b C. induction C; [apply t1n_step; auto|eapply Relation_Operators.t1n_trans; eauto]. Qed.

Lemma rtc_mono {A} (R S : A -> A -> Prop) : (forall a b, R a b -> S a b) -> forall a b, clos_refl_trans_1n _ R a b -> clos_refl_trans_1n _ S a b.
Proof. intros H a b C. induction C; [apply rt1n_refl|eapply Relation_Operators.rt1n_trans; eauto]. Qed.

Lemma check_recursive_one env d :
  check_recursive env d = None <->
  (ld_kind d <> LReg -> forall r0, In r0 (ld_refs d) -> cyc (length env) env [] r0 = false).
Proof.
  unfold check_recursive.
  assert (X : (if existsb (cyc (length env) env []) (ld_refs d) then Some (RRecursiveRegDef (ld_id d)) else None) = None <->
              forall r0, In r0 (ld_refs d) -> cyc (length env) env [] r0 = false).
  { destruct (existsb _ _) eqn:E.
    - apply existsb_exists in E as (r0 & Hr & C). split; [discriminate|]. intro H. rewrite (H r0 Hr) in C. discriminate.
    - split; [|reflexivity]. intros _ r0 Hr. destruct (cyc _ _ _ r0) eqn:C; [|reflexivity].
      rewrite <- E. symmetry. apply existsb_exists. eauto. }
  destruct (ld_kind d).
  - rewrite X. split; [auto|intro H; apply H; discriminate].
  - (* a regular definition is not a starting point of the expansion *) split; [intros _ H; contradiction|reflexivity].
  - rewrite X. split; [auto|intro H; apply H; discriminate].
Qed.

Lemma cyc_reg_env lds : NoDup (map ld_id lds) -> forall r0,
  cyc (length (reg_env lds)) (reg_env lds) [] r0 = false <->
  (forall x, clos_refl_trans_1n _ (regdef_edge lds) r0 x -> ~ clos_trans_1n _ (regdef_edge lds) x x).
Proof.
  intros Hnd r0. rewrite cyc_fuel_enough. pose proof (edge_iff lds Hnd) as EI.
  split; intros H x C T; apply (H x).
  - (* paths of [regdef_edge] are paths of [edge] *) eapply rtc_mono; [|exact C]. intros a b. apply EI.
  - eapply tc_mono; [|exact T]. intros a b. apply EI.
  - (* and conversely *) eapply rtc_mono; [|exact C]. intros a b. apply EI.
  - eapply tc_mono; [|exact T]. intros a b. apply EI.
Qed.

Lemma check_recursive_none lds :
  NoDup (map ld_id lds) ->
  (first_some (check_recursive (reg_env lds)) lds = None <-> regdefs_acyclic lds).
Proof.
  intro Hnd. rewrite first_some_none. unfold regdefs_acyclic, reg_reachable. split.
  - intros H r (d & r0 & Hd & Hk & Hr0 & C).
    exact (proj1 (cyc_reg_env lds Hnd r0) (proj1 (check_recursive_one _ d) (H d Hd) Hk r0 Hr0) r C).
  - intros H d Hd. apply check_recursive_one. intros Hk r0 Hr0. apply (cyc_reg_env lds Hnd). intros x Cx.
    apply H. exists d, r0. auto.
Qed.

Lemma first_dup_nil l : first_dup [] l = None <-> NoDup (map ld_id l).
Proof. rewrite first_dup_none. split; [intros [H _]; exact H|intro H; split; [exact H|intros x _ []]]. Qed.

Lemma strlit_tok_none ids l :
  first_some (check_strlit_tok ids) l = None <-> forall s, In s l -> s <> [] /\ ~ In s ids.
Proof. rewrite first_some_none. split; intros H s Hs; apply check_strlit_tok_none, H, Hs. Qed.

Section Main.
Variable ft : ftypes.
Variable toks : list ftok.

Definition sem_wf : Prop :=
  (* no lexical production id is defined twice (tokens, regular definitions, ignored tokens: one name space) *)
  NoDup (lex_ids ft toks) /\
  (* syntax part (aug_alts = [] when there is none): every alternative has a symbol, no production is called INVALID,
     no symbol is INVALID or the end-of-file mark; every used symbol with an upper-case initial is defined *)
  consistent_ok ft toks /\
  (* every reference to a regular definition, wherever it occurs, has a definition *)
  (forall r, In r (reg_uses ft toks) -> In r (reg_defs ft toks)) /\
  (* no string literal spells the id of its own or an earlier production (S' included) *)
  strlit_prod_ok [] (aug_alts ft toks) /\
  (* no string literal is empty or spells the id of a lexical production *)
  (forall s, In s (str_uses ft toks) -> s <> [] /\ ~ In s (lex_ids ft toks)) /\
  (* no regular definition that a token or ignored token reaches refers to itself, directly or indirectly *)
  regdefs_acyclic (lex_defs ft toks).

Theorem sem_check_none_iff : sem_check ft toks = None <-> sem_wf.
Proof.
  unfold sem_check, sem_wf. split.
  - intro H. apply or_else_none in H as [D H]. apply or_else_none in H as [C H]. apply or_else_none in H as [U H].
    apply or_else_none in H as [P H]. apply or_else_none in H as [S R]. apply first_dup_nil in D.
    split; [exact D|]. split; [apply check_consistent_none, C|]. split; [apply check_regdef_refs_none, U|].
    split; [apply check_strlit_prod_none, P|]. split; [apply strlit_tok_none, S|apply (check_recursive_none _ D), R].
  - intros (D & C & U & P & S & R).
    rewrite (proj2 (first_dup_nil _) D), (proj2 (check_consistent_none _ _) C), (proj2 (check_regdef_refs_none _ _ _) U),
      (proj2 (check_strlit_prod_none _ _) P), (proj2 (strlit_tok_none _ _) S).
    exact (proj2 (check_recursive_none _ D) R).
Qed.

Theorem sem_verdict_ok_iff : sem_verdict ft toks = SemOk <-> sem_wf.
Proof.
  unfold sem_verdict. rewrite <- sem_check_none_iff. destruct (sem_check ft toks); split; intro H; try discriminate; reflexivity.
Qed.

End Main.
Print Assumptions sem_verdict_ok_iff.

Lemma defs_gen_head_in {A} (isc iss : A -> bool) l h b : In (h, b) (defs_gen isc iss l) -> In h l.
Proof.
  induction l as [|x rest IH]; simpl; [tauto|].
  destruct rest as [|c rest']; [simpl; tauto|].
  destruct (isc c).
  - intros [E|H]; [inversion E; subst; left; reflexivity|right; apply IH; exact H].
  - intro H. right. apply IH. exact H.
Qed.

Section Facts.
Variable ft : ftypes.
Variable toks : list ftok.

Lemma lex_defs_of_in d ds :
  In d (lex_defs_of ft ds) -> exists h body, In (h, body) ds /\ lex_kind ft h = Some (ld_kind d) /\ ld_id d = f_lit h.
Proof.
  induction ds as [|[h body] t IH]; simpl; [tauto|].
  destruct (lex_kind ft h) as [k|] eqn:K.
  - intros [<-|H].
    + exists h, body. simpl. auto.
    + destruct (IH H) as (h' & b' & ? & ?). exists h', b'. auto.
  - intro H. destruct (IH H) as (h' & b' & ? & ?). exists h', b'. auto.
Qed.

Lemma tok_defs_are_tokIds n : In n (tok_defs ft toks) -> exists t, In t toks /\ f_type t = ft_tokId ft /\ f_lit t = n.
Proof.
  unfold tok_defs, ids_of_kind. intro H. apply in_map_iff in H. destruct H as (d & <- & H).
  apply filter_In in H. destruct H as [H K]. apply lkind_eqb_eq in K.
  apply lex_defs_of_in in H. destruct H as (h & body & Hin & Hk & Hid).
  exists h. split; [eapply defs_gen_head_in; exact Hin|]. split; [|auto].
  rewrite K in Hk. unfold lex_kind, is_ty in Hk.
  destruct (f_type h =? ft_tokId ft)%Z eqn:E; [apply Z.eqb_eq in E; exact E|].
  destruct (f_type h =? ft_regDefId ft)%Z; [discriminate|].
  destruct (f_type h =? ft_ignoredTokId ft)%Z; discriminate.
Qed.

Theorem sem_ok_facts : sem_verdict ft toks = SemOk ->
  NoDup (tok_defs ft toks) /\ NoDup (reg_defs ft toks) /\ NoDup (ign_defs ft toks) /\
  (forall r, In r (reg_uses ft toks) -> In r (reg_defs ft toks)) /\
  regdefs_acyclic (lex_defs ft toks) /\
  (forall p, UpperInitial p -> In p (prod_uses ft toks) -> In p (tok_defs ft toks ++ prod_heads ft toks)) /\
  (forall a, In a (aug_alts ft toks) -> snd a <> [] /\ fst a <> n_INVALID /\
             forall s, In s (snd a) -> snd s <> n_INVALID /\ snd s <> n_EOF).
Proof.
  intro H. apply sem_verdict_ok_iff in H. destruct H as (D & [C1 C2] & U & _ & _ & R).
  unfold tok_defs, reg_defs, ign_defs, ids_of_kind.
  repeat (split; [apply NoDup_map_filter; exact D|]).
  split; [exact U|]. split; [exact R|]. split; [exact C2|]. exact C1.
Qed.

(** with the scanner's classification (a tokId never starts with an upper-case letter: FScan.ident_type), an undefined symbol with an
    upper-case initial is an undefined syntax PRODUCTION *)
Corollary sem_ok_productions_defined : sem_verdict ft toks = SemOk ->
  (forall t, In t toks -> f_type t = ft_tokId ft -> ~ UpperInitial (f_lit t)) ->
  forall p, UpperInitial p -> In p (prod_uses ft toks) -> In p (prod_heads ft toks).
Proof.
  intros H Hs p Hu Hp. destruct (sem_ok_facts H) as (_ & _ & _ & _ & _ & F & _).
  specialize (F p Hu Hp). apply in_app_or in F. destruct F as [F|F]; [|exact F].
  exfalso. apply tok_defs_are_tokIds in F. destruct F as (t & Ht & Hty & <-). exact (Hs t Ht Hty Hu).
Qed.

End Facts.
Print Assumptions sem_ok_facts.
Print Assumptions sem_ok_productions_defined.

Lemma tree_ind' (P : tree -> Prop) :
  (forall t, P (Leaf t)) -> (forall p kids, Forall P kids -> P (Node p kids)) -> forall t, P t.
Proof.
  intros HL HN. fix IH 1. intros [t|p kids].
  - apply HL.
  - apply HN. induction kids as [|k r IHr]; constructor; [apply IH|exact IHr].
Qed.

Lemma wt_inv g s t w : wt g s t w ->
  match t with
  | Leaf tk => s = T (ttype tk) /\ w = [tk]
  | Node p kids => exists pr, s = NT (lhs pr) /\ nth_error g p = Some pr /\ wts g (rhs pr) kids w
  end.
Proof. intros [tk|p pr kids w' Hp Hw]; eauto. Qed.

(** [wts] is inverted by elimination rules: they put the constructor's terms in place of [ts] and [w] in the goal, where
    rewriting with equations would copy the goal at every step *)
Lemma wts_nil_elim g (P : list tree -> list token -> Prop) : P [] [] -> forall ts w, wts g [] ts w -> P ts w.
Proof. intros HP ts w H. inversion H; subst. exact HP. Qed.

Lemma wts_cons_elim g s ss (P : list tree -> list token -> Prop) :
  (forall t w1, wt g s t w1 -> forall ts w2, wts g ss ts w2 -> P (t :: ts) (w1 ++ w2)) -> forall ts w, wts g (s :: ss) ts w -> P ts w.
Proof. intros HP ts w H. inversion H; subst. apply HP; assumption. Qed.

Lemma wts_T_elim g a ss (P : list tree -> list token -> Prop) :
  (forall tk, ttype tk = a -> forall ts w, wts g ss ts w -> P (Leaf tk :: ts) (tk :: w)) -> forall ts w, wts g (T a :: ss) ts w -> P ts w.
Proof.
  intro HP. apply wts_cons_elim. intros t w1 H1. apply wt_inv in H1.
  destruct t as [tk|]; [destruct H1 as [[= E] ->]|destruct H1 as (pr & [=] & _)]. exact (HP tk (eq_sym E)).
Qed.

Section Cut.
Context {A : Type}.
Variables isc iss : A -> bool.

Definition nostart (p : A -> bool) (w : list A) : Prop := match w with [] => True | x :: _ => p x = false end.

Lemma heads_of_cons2 h c r :
  heads_of isc (h :: c :: r) = if isc c then h :: heads_of isc (c :: r) else heads_of isc (c :: r).
Proof. reflexivity. Qed.

Lemma defs_gen_cons2 h c r :
  defs_gen isc iss (h :: c :: r) =
  if isc c then (h, until iss r) :: defs_gen isc iss (c :: r) else defs_gen isc iss (c :: r).
Proof. reflexivity. Qed.

Lemma heads_of_app u v : nostart isc v -> heads_of isc (u ++ v) = heads_of isc u ++ heads_of isc v.
Proof.
  intro Hv. induction u as [|h rest IH]; [reflexivity|].
  destruct rest as [|c rest'].
  - destruct v as [|x v']; [reflexivity|]. simpl in Hv. change ([h] ++ x :: v') with (h :: x :: v').
    rewrite heads_of_cons2, Hv. reflexivity.
  - change ((h :: c :: rest') ++ v) with (h :: c :: (rest' ++ v)). rewrite !heads_of_cons2.
    change (c :: rest' ++ v) with ((c :: rest') ++ v). rewrite IH. destruct (isc c); reflexivity.
Qed.

Lemma nostart_app p u v : nostart p u -> nostart p v -> nostart p (u ++ v).
Proof. destruct u; simpl; auto. Qed.

Lemma defs_gen_heads l : map fst (defs_gen isc iss l) = heads_of isc l.
Proof.
  induction l as [|h rest IH]; [reflexivity|].
  destruct rest as [|c rest']; [reflexivity|].
  rewrite defs_gen_cons2, heads_of_cons2. destruct (isc c); cbn [map fst]; rewrite IH; reflexivity.
Qed.

Lemma until_app u s v : forallb (fun x => negb (iss x)) u = true -> iss s = true -> until iss (u ++ s :: v) = u.
Proof.
  intros Hu Hs. induction u as [|x u IH]; simpl.
  - rewrite Hs. reflexivity.
  - simpl in Hu. apply andb_true_iff in Hu. destruct Hu as [H1 H2]. apply negb_true_iff in H1. rewrite H1, IH; auto.
Qed.

(** every ':' has a ';' somewhere after it *)
Fixpoint bal (w : list A) : Prop :=
  match w with
  | [] => True
  | x :: r => (isc x = true -> existsb iss r = true) /\ bal r
  end.

Lemma bal_app u v : bal u -> bal v -> bal (u ++ v).
Proof.
  induction u as [|x u IH]; simpl; [auto|]. intros [H1 H2] Hv. split; [|auto].
  intro Hx. rewrite existsb_app, (H1 Hx). reflexivity.
Qed.

Lemma until_app_in u v : existsb iss u = true -> until iss (u ++ v) = until iss u.
Proof.
  induction u as [|x u IH]; simpl; [discriminate|]. destruct (iss x); [reflexivity|]. simpl. intro H. rewrite IH; auto.
Qed.

Lemma defs_gen_app u v : nostart isc v -> bal u -> defs_gen isc iss (u ++ v) = defs_gen isc iss u ++ defs_gen isc iss v.
Proof.
  intros Hv. induction u as [|h rest IH]; intro Hb; [reflexivity|].
  destruct rest as [|c rest'].
  - destruct v as [|x v']; [reflexivity|]. simpl in Hv. change ([h] ++ x :: v') with (h :: x :: v').
    rewrite defs_gen_cons2, Hv. reflexivity.
  - change ((h :: c :: rest') ++ v) with (h :: c :: (rest' ++ v)). rewrite !defs_gen_cons2.
    change (c :: rest' ++ v) with ((c :: rest') ++ v). destruct Hb as [_ Hb]. rewrite (IH Hb).
    destruct (isc c) eqn:Ec; [|reflexivity]. destruct Hb as [Hc _]. rewrite (until_app_in _ _ (Hc Ec)). reflexivity.
Qed.

Lemma defs_gen_nocolon l : forallb (fun x => negb (isc x)) l = true -> forall x, defs_gen isc iss (x :: l) = [].
Proof.
  induction l as [|c r IH]; intros H x; [reflexivity|]. simpl in H. apply andb_true_iff in H. destruct H as [H1 H2].
  apply negb_true_iff in H1. rewrite defs_gen_cons2, H1. apply IH. exact H2.
Qed.

Lemma defs_gen_nocolon' l : forallb (fun x => negb (isc x)) l = true -> defs_gen isc iss l = [].
Proof.
  destruct l as [|x l]; [reflexivity|]. simpl. rewrite andb_true_iff. intros [_ H]. apply defs_gen_nocolon. exact H.
Qed.

Lemma bal_nocolon l : forallb (fun x => negb (isc x)) l = true -> bal l.
Proof.
  induction l as [|c r IH]; simpl; [auto|]. rewrite andb_true_iff. intros [H1 H2]. apply negb_true_iff in H1.
  split; [rewrite H1; discriminate|auto].
Qed.

Lemma defs_gen_def h c body s :
  isc h = false -> isc c = true -> isc s = false -> iss s = true ->
  forallb (fun x => negb (isc x)) body = true -> forallb (fun x => negb (iss x)) body = true ->
  let w := h :: c :: body ++ [s] in
  defs_gen isc iss w = [(h, body)] /\ nostart isc w /\ bal w.
Proof.
  intros Hh Hc Hs Hs' NC NS w.
  assert (NC' : forallb (fun x => negb (isc x)) (body ++ [s]) = true).
  { rewrite forallb_app, NC. simpl. rewrite Hs. reflexivity. }
  split; [|split; [exact Hh|]].
  - unfold w. rewrite defs_gen_cons2, Hc, (until_app _ _ [] NS Hs'), (defs_gen_nocolon _ NC'). reflexivity.
  - split; [congruence|]. split; [|apply bal_nocolon; exact NC'].
    intros _. rewrite existsb_app. simpl. rewrite Hs'. apply orb_true_r.
Qed.

End Cut.

Lemma heads_of_map {A B} (f : A -> B) (isc : B -> bool) l :
  heads_of isc (map f l) = map f (heads_of (fun a => isc (f a)) l).
Proof.
  induction l as [|h rest IH]; [reflexivity|].
  destruct rest as [|c rest']; [reflexivity|].
  change (map f (h :: c :: rest')) with (f h :: f c :: map f rest'). rewrite !heads_of_cons2.
  change (f c :: map f rest') with (map f (c :: rest')). rewrite IH. destruct (isc (f c)); reflexivity.
Qed.

Lemma heads_of_ext {A} (p q : A -> bool) l : (forall a, p a = q a) -> heads_of p l = heads_of q l.
Proof.
  intro H. induction l as [|h rest IH]; [reflexivity|].
  destruct rest as [|c rest']; [reflexivity|]. rewrite !heads_of_cons2, H, IH. reflexivity.
Qed.

Lemma until_map {A B} (f : A -> B) (p : B -> bool) l : until p (map f l) = map f (until (fun a => p (f a)) l).
Proof. induction l as [|x l IH]; simpl; [reflexivity|]. destruct (p (f x)); [reflexivity|]. simpl. rewrite IH. reflexivity. Qed.

Lemma until_ext {A} (p q : A -> bool) l : (forall a, p a = q a) -> until p l = until q l.
Proof. intro H. induction l as [|x l IH]; simpl; [reflexivity|]. rewrite H, IH. reflexivity. Qed.

Definition pmap {A B} (f : A -> B) (d : A * list A) : B * list B := (f (fst d), map f (snd d)).

Lemma defs_gen_map {A B} (f : A -> B) (isc iss : B -> bool) l :
  defs_gen isc iss (map f l) = map (pmap f) (defs_gen (fun a => isc (f a)) (fun a => iss (f a)) l).
Proof.
  induction l as [|h rest IH]; [reflexivity|].
  destruct rest as [|c rest']; [reflexivity|].
  change (map f (h :: c :: rest')) with (f h :: f c :: map f rest'). rewrite !defs_gen_cons2.
  change (f c :: map f rest') with (map f (c :: rest')). rewrite IH. destruct (isc (f c)); [|reflexivity].
  simpl map. unfold pmap at 1. simpl. rewrite until_map. reflexivity.
Qed.

Lemma defs_gen_ext {A} (p q p' q' : A -> bool) l :
  (forall a, p a = q a) -> (forall a, p' a = q' a) -> defs_gen p p' l = defs_gen q q' l.
Proof.
  intros H H'. induction l as [|h rest IH]; [reflexivity|].
  destruct rest as [|c rest']; [reflexivity|]. rewrite !defs_gen_cons2, H, IH, (until_ext p' q' _ H'). reflexivity.
Qed.

Section B.
Variable g : grammar.
Variable colon : nat.              (* the terminal ":" in the parser model's numbering (front-end type + 1) *)

Definition isc (t : token) : bool := Nat.eqb (ttype t) colon.
Definition is_colon_sym (s : sym) : bool := match s with T n => Nat.eqb n colon | NT _ => false end.
Definition is_term (s : sym) : bool := match s with T _ => true | NT _ => false end.
Definition colon_free (ss : list sym) : bool := forallb (fun s => negb (is_colon_sym s)) ss.

(** a right-hand side either has no ":" at all, or is  h ":" rest  with [h] a terminal other than ":" and no ":" in rest *)
Definition rhs_ok (r : list sym) : bool :=
  colon_free r ||
  match r with
  | s0 :: s1 :: r2 => is_term s0 && negb (is_colon_sym s0) && is_colon_sym s1 && colon_free r2
  | _ => false
  end.

(** the side condition on the grammar; evaluated by the kernel on the spec grammar on every run (lib/semharness.py, kernel_obligations) *)
Definition colon_ok : bool := forallb (fun p => rhs_ok (rhs p)) g.

(** the productions of definitions:  X : h ":" ... *)
Definition def_prod (pr : prod) : bool := match rhs pr with _ :: s1 :: _ => is_colon_sym s1 | _ => false end.

(** the first children of the definition nodes of a tree, left to right *)
Fixpoint heads_tree (t : tree) : list token :=
  match t with
  | Leaf _ => []
  | Node p kids =>
    (match nth_error g p with
     | Some pr => if def_prod pr then match kids with Leaf h :: _ => [h] | _ => [] end else []
     | None => []
     end) ++ flat_map heads_tree kids
  end.

Lemma colon_free_not_def pr : colon_free (rhs pr) = true -> def_prod pr = false.
Proof.
  unfold def_prod, colon_free. destruct (rhs pr) as [|s0 [|s1 r2]]; try reflexivity. simpl.
  rewrite !andb_true_iff. intros (_ & H & _). apply negb_true_iff in H. exact H.
Qed.

Definition agrees {X} (F : list token -> list X) (FT : tree -> list X) (Q : list token -> Prop) (t : tree) : Prop :=
  forall s w, wt g s t w -> is_colon_sym s = false -> F w = FT t /\ Q w.

Lemma wts_colon_free {X} (F : list token -> list X) (FT : tree -> list X) (Q : list token -> Prop) :
  F [] = [] -> Q [] -> (forall u v, Q u -> Q v -> F (u ++ v) = F u ++ F v /\ Q (u ++ v)) ->
  forall ts, Forall (agrees F FT Q) ts ->
  forall ss w, wts g ss ts w -> colon_free ss = true -> F w = flat_map FT ts /\ Q w.
Proof.
  intros F0 Q0 Fapp ts FA ss w H. induction H as [|s ss t ts w1 w2 Ht Hts IH]; intro C; [auto|].
  simpl in C. apply andb_true_iff in C as [C1 C2]. apply negb_true_iff in C1.
  destruct (Forall_inv FA _ _ Ht C1) as [E1 Q1], (IH (Forall_inv_tail FA) C2) as [E2 Q2]. destruct (Fapp _ _ Q1 Q2) as [E Q12].
  split; [|exact Q12]. simpl. rewrite E, E1, E2. reflexivity.
Qed.

Theorem heads_are_definition_heads : colon_ok = true ->
  forall t s w, wt g s t w -> is_colon_sym s = false -> heads_of isc w = heads_tree t /\ nostart isc w.
Proof.
  intro CO. change (forall t, agrees (heads_of isc) heads_tree (nostart isc) t).
  pose proof (wts_colon_free (heads_of isc) heads_tree (nostart isc) eq_refl I
                (fun u v Qu Qv => conj (heads_of_app isc u v Qv) (nostart_app isc u v Qu Qv))) as CF.
  induction t as [tk|p kids F] using tree_ind'; intros s w H Hs; apply wt_inv in H.
  - destruct H as [-> ->]. split; [reflexivity|exact Hs].
  - destruct H as (pr & -> & Hp & Hw).
    pose proof (proj1 (forallb_forall _ _) CO pr (nth_error_In _ _ Hp)) as RO.
    apply orb_true_iff in RO as [RO|RO].
    + cbn [heads_tree]. rewrite Hp, (colon_free_not_def _ RO). exact (CF _ F _ _ Hw RO).
    + destruct (rhs pr) as [|s0 [|s1 r2]] eqn:ER; try discriminate RO.
      apply andb_true_iff in RO as [RO C2]. apply andb_true_iff in RO as [RO C1]. apply andb_true_iff in RO as [T0 N0].
      apply negb_true_iff in N0. destruct s0 as [a|]; [|discriminate T0]. destruct s1 as [b|]; [|discriminate C1].
      (* the right-hand side symbol by symbol: h, ":", the rest *)
      revert F. revert kids w Hw. refine (wts_T_elim _ _ _ _ _). intros h <-. refine (wts_T_elim _ _ _ _ _).
      intros c <- ts w Hw F.
      destruct (CF ts (Forall_inv_tail (Forall_inv_tail F)) _ _ Hw C2) as [E N].
      (* [isc c] is [is_colon_sym (T (ttype c))] *)
      cbn [heads_tree]. unfold def_prod. rewrite Hp, ER, C1, heads_of_cons2, (C1 : isc c = true).
      rewrite (heads_of_app isc [c] w N : heads_of isc (c :: w) = _), E. split; [reflexivity|exact N0].
Qed.

End B.
Print Assumptions heads_are_definition_heads.

Section B2.
Variable g : grammar.
Variables colon semi : nat.        (* the terminals ":" and ";" in the parser model's numbering *)
Variable sf : list nat.            (* nonterminals claimed to derive neither ":" nor ";" (checked by [plain_ok]) *)

Let is_colon := isc colon.
Definition iss (t : token) : bool := Nat.eqb (ttype t) semi.
Definition in_sf (n : nat) : bool := existsb (Nat.eqb n) sf.

Definition plain_sym (s : sym) : bool :=
  match s with T n => negb (Nat.eqb n colon) && negb (Nat.eqb n semi) | NT m => in_sf m end.

(** [sf] is closed: the productions of its members mention only plain symbols *)
Definition plain_ok : bool := forallb (fun p => if in_sf (lhs p) then forallb plain_sym (rhs p) else true) g.

(** h ":" B ";"  with h a terminal other than ":" and B in [sf] *)
Definition def_shape (r : list sym) : bool :=
  match r with
  | [T a; T c; NT b; T s] => negb (Nat.eqb a colon) && Nat.eqb c colon && in_sf b && Nat.eqb s semi
  | _ => false
  end.

(** the side condition: evaluated by the kernel on the spec grammar *)
Definition cut_ok : bool :=
  negb (Nat.eqb colon semi) && plain_ok && forallb (fun p => colon_free colon (rhs p) || def_shape (rhs p)) g.

Fixpoint yield (t : tree) : list token :=
  match t with Leaf x => [x] | Node _ kids => flat_map yield kids end.

(** (first child, yield of the third child) of the definition nodes, left to right *)
Fixpoint defs_tree (t : tree) : list (token * list token) :=
  match t with
  | Leaf _ => []
  | Node p kids =>
    (match nth_error g p with
     | Some pr => if def_prod colon pr then match kids with Leaf h :: _ :: b :: _ => [(h, yield b)] | _ => [] end else []
     | None => []
     end) ++ flat_map defs_tree kids
  end.

Lemma wt_yield : (forall s t w, wt g s t w -> yield t = w) /\ (forall ss ts w, wts g ss ts w -> flat_map yield ts = w).
Proof. apply wt_wts_ind; intros; simpl; congruence. Qed.

Lemma plain_yields : plain_ok = true ->
  let plain w := forallb (fun x => negb (is_colon x)) w = true /\ forallb (fun x => negb (iss x)) w = true in
  (forall s t w, wt g s t w -> plain_sym s = true -> plain w) /\
  (forall ss ts w, wts g ss ts w -> forallb plain_sym ss = true -> plain w).
Proof.
  intros PO plain. apply wt_wts_ind.
  - intros tk Hs. apply andb_true_iff in Hs as [H1 H2]. split; cbn [forallb]; rewrite andb_true_r; assumption.
  - intros p pr kids w Hp _ IH Hs. apply IH.
    pose proof (proj1 (forallb_forall _ _) PO pr (nth_error_In _ _ Hp)) as R. simpl in R, Hs. rewrite Hs in R. exact R.
  - split; reflexivity.
  - intros s ss t ts w1 w2 _ IH1 _ IH2 R. apply andb_true_iff in R as [R1 R2].
    destruct (IH1 R1) as [C1 S1], (IH2 R2) as [C2 S2]. split; rewrite forallb_app; [rewrite C1|rewrite S1]; assumption.
Qed.

Lemma def_shape_inv r : def_shape r = true ->
  exists a c b s, r = [T a; T c; NT b; T s] /\
    Nat.eqb a colon = false /\ Nat.eqb c colon = true /\ in_sf b = true /\ Nat.eqb s semi = true.
Proof.
  intro H.
  destruct r as [|[a|] r]; try discriminate H. destruct r as [|[c|] r]; try discriminate H.
  destruct r as [|[|b] r]; try discriminate H. destruct r as [|[s|] r]; try discriminate H. destruct r; try discriminate H.
  apply andb_true_iff in H as [H Es]. apply andb_true_iff in H as [H Sb]. apply andb_true_iff in H as [Na Ec].
  apply negb_true_iff in Na. exists a, c, b, s. auto.
Qed.

Theorem cut_is_definition_nodes : cut_ok = true ->
  forall t s w, wt g s t w -> is_colon_sym colon s = false ->
    defs_gen is_colon iss w = defs_tree t /\ nostart is_colon w /\ bal is_colon iss w.
Proof.
  intro CO. apply andb_true_iff in CO as [NP CO]. apply andb_true_iff in NP as [NE PO]. apply negb_true_iff in NE.
  change (forall t, agrees g colon (defs_gen is_colon iss) defs_tree (fun w => nostart is_colon w /\ bal is_colon iss w) t).
  pose proof (wts_colon_free g colon (defs_gen is_colon iss) defs_tree (fun w => nostart is_colon w /\ bal is_colon iss w) eq_refl (conj I I)
                (fun u v Qu Qv => conj (defs_gen_app is_colon iss u v (proj1 Qv) (proj2 Qu))
                                    (conj (nostart_app is_colon u v (proj1 Qu) (proj1 Qv)) (bal_app is_colon iss u v (proj2 Qu) (proj2 Qv)))))
    as CF.
  induction t as [tk|p kids F] using tree_ind'; intros s w H Hs; apply wt_inv in H.
  - destruct H as [-> ->]. split; [reflexivity|]. split; [exact Hs|]. split; [|exact I].
    intro Hc. rewrite (Hs : is_colon tk = false) in Hc. discriminate.
  - destruct H as (pr & -> & Hp & Hw). pose proof (proj1 (forallb_forall _ _) CO pr (nth_error_In _ _ Hp)) as RO.
    apply orb_true_iff in RO as [RO|RO].
    + cbn [defs_tree]. rewrite Hp, (colon_free_not_def _ _ RO). exact (CF _ F _ _ Hw RO).
    + apply def_shape_inv in RO as (a & c & b & sm & ER & Na & Ec & Sb & Es). rewrite ER in Hw.
      (* the right-hand side symbol by symbol: h, ":", the body, ";" *)
      revert F. revert kids w Hw. refine (wts_T_elim _ _ _ _ _). intros h <-. refine (wts_T_elim _ _ _ _ _).
      intros c' <-. refine (wts_cons_elim _ _ _ _ _). intros tb wb Hb. refine (wts_T_elim _ _ _ _ _). intros s <-.
      refine (wts_nil_elim _ _ _). intro F.
      destruct (proj1 (plain_yields PO) _ _ _ Hb Sb) as [NC NS].
      (* the body subtree contains no definition node: its word has no ":" *)
      destruct (Forall_inv (Forall_inv_tail (Forall_inv_tail F)) _ _ Hb eq_refl) as [Eb _].
      rewrite (defs_gen_nocolon' _ _ _ NC) in Eb.
      assert (Hsc : is_colon s = false).
      { apply Nat.eqb_eq in Es. unfold is_colon, isc. rewrite Es, Nat.eqb_sym. exact NE. }
      cbn [defs_tree]. unfold def_prod. rewrite Hp, ER. cbn [is_colon_sym flat_map defs_tree app].
      rewrite Ec, <- Eb, (proj1 wt_yield _ _ _ Hb).
      exact (defs_gen_def is_colon iss h c' wb s Na Ec Hsc Es NC NS).
Qed.

End B2.
Print Assumptions cut_is_definition_nodes.
