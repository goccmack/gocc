(** Property C11: the generator's outputs do not depend on Go's map iteration order.
    Each theorem quantifies over the permutation parameters ("oracles") of Perm.v.
    (1) TokenIds() -- hence the token numbering of C10 -- is the same list whatever order the map TokDefs yields its keys
        in, for ANY sorting function meeting the specification "sorted permutation of the input" ([sort_unique]);
    (2) the FIRST sets computed with two arbitrary families of iteration orders are equal as sets (pointwise,
        duplicate-free, same elements), the [again] flag of every round and the number of rounds are the same, and the
        sorted key lists used by the LR(1) closure are equal lists;
    (3) conflictMap order only permutes the conflict list; together with the order of the items it affects neither the
        winner nor the count. *)
From Coq Require Import List Bool Arith Permutation Sorted ZArith.
From Gocc Require Import LR.Parse LR.Resolve LR.ResolveProofs Front.TokMap Front.TokMapProofs Front.Perm.
Import ListNotations.

Section SortProofs.
Variable A : Type.
Variable leb : A -> A -> bool.
Definition is_le (a b : A) : Prop := leb a b = true.
Hypothesis leb_total : forall a b, leb a b = true \/ leb b a = true.
Hypothesis leb_trans : forall a b c, leb a b = true -> leb b c = true -> leb a c = true.
Hypothesis leb_antisym : forall a b, leb a b = true -> leb b a = true -> a = b.

Notation insert := (insert A leb).
Notation isort := (isort A leb).

Lemma insert_perm : forall x l, Permutation (insert x l) (x :: l).
Proof.
  induction l as [|a l IH]; simpl.
  - apply Permutation_refl.
  - destruct (leb x a).
    + apply Permutation_refl.
    + apply perm_trans with (a :: x :: l); [apply perm_skip; exact IH|apply perm_swap].
Qed.

Lemma isort_perm : forall l, Permutation (isort l) l.
Proof.
  induction l as [|a l IH]; simpl.
  - constructor.
  - apply perm_trans with (a :: isort l); [apply insert_perm|apply perm_skip; exact IH].
Qed.

Lemma insert_sorted : forall x l, Sorted is_le l -> Sorted is_le (insert x l).
Proof.
  induction l as [|a l IH]; intros H; simpl.
  - repeat constructor.
  - destruct (leb x a) eqn:E.
    + constructor; [exact H|]. constructor. exact E.
    + assert (Hax : is_le a x).
      { destruct (leb_total a x) as [H1|H1]; [exact H1|congruence]. }
      inversion H as [|? ? HS HR]; subst.
      constructor; [apply IH; exact HS|].
      destruct l as [|b l']; simpl.
      * constructor. exact Hax.
      * destruct (leb x b); constructor; [exact Hax|].
        inversion HR; subst. assumption.
Qed.

Lemma isort_sorted : forall l, Sorted is_le (isort l).
Proof.
  induction l as [|a l IH]; simpl; [constructor|]. apply insert_sorted. exact IH.
Qed.

Lemma le_transitive : Relations_1.Transitive is_le.
Proof. intros a b c. apply leb_trans. Qed.

Lemma strongly_sorted_perm_eq : forall l l',
  StronglySorted is_le l -> StronglySorted is_le l' -> Permutation l l' -> l = l'.
Proof.
  induction l as [|a l IH]; intros l' H H' HP.
  - apply Permutation_nil in HP. congruence.
  - destruct l' as [|b l'].
    + apply Permutation_sym, Permutation_nil in HP. discriminate.
    + inversion H as [|? ? HS HF]; subst. inversion H' as [|? ? HS' HF']; subst.
      assert (a = b) as ->.
      { assert (Ha : In a (b :: l')) by (apply (Permutation_in _ HP); left; reflexivity).
        assert (Hb : In b (a :: l))
          by (apply (Permutation_in _ (Permutation_sym HP)); left; reflexivity).
        destruct Ha as [Ha|Ha]; [congruence|]. destruct Hb as [Hb|Hb]; [congruence|].
        rewrite Forall_forall in HF, HF'.
        apply leb_antisym; [apply HF; exact Hb|apply HF'; exact Ha]. }
      f_equal. apply IH; [exact HS|exact HS'|]. eapply Permutation_cons_inv. exact HP.
Qed.

(** sort.Strings as a specification *)
Theorem sort_unique : forall keys keys' r r',
  Permutation keys keys' ->
  Sorted is_le r -> Permutation r keys ->
  Sorted is_le r' -> Permutation r' keys' ->
  r = r'.
Proof.
  intros keys keys' r r' HP HS Hr HS' Hr'.
  apply strongly_sorted_perm_eq.
  - apply Sorted_StronglySorted; [exact le_transitive|exact HS].
  - apply Sorted_StronglySorted; [exact le_transitive|exact HS'].
  - apply perm_trans with keys; [exact Hr|].
    apply perm_trans with keys'; [exact HP|apply Permutation_sym; exact Hr'].
Qed.

Theorem isort_perm_eq : forall l l', Permutation l l' -> isort l = isort l'.
Proof.
  intros l l' HP.
  apply (sort_unique l l'); [exact HP|apply isort_sorted|apply isort_perm|apply isort_sorted|apply isort_perm].
Qed.

(** LexPart.TokenIds() *)
Theorem token_ids_order_independent : forall order order',
  Permutation order order' -> token_ids A leb order = token_ids A leb order'.
Proof. intros. unfold token_ids. apply isort_perm_eq. assumption. Qed.

(** C10 + C11: the token numbering does not depend on that order either *)
Theorem terminals_lex_order_independent :
  forall (eqb : A -> A -> bool) (INVALID EOFSYM EMPTY : A) prods order order',
  Permutation order order' ->
  terminals A eqb INVALID EOFSYM EMPTY prods (token_ids A leb order)
  = terminals A eqb INVALID EOFSYM EMPTY prods (token_ids A leb order').
Proof. intros. rewrite (token_ids_order_independent order order'); [reflexivity|assumption]. Qed.

End SortProofs.

Section FirstProofs.
Variable str : Type.
Variable eqb : str -> str -> bool.
Variable EMPTY : str.
Variable is_term : str -> bool.
Hypothesis eqb_eq : forall a b, eqb a b = true <-> a = b.

Notation mem := (mem str eqb).
Notation add := (add str eqb).
Notation add_all := (add_all str eqb).
Notation env := (env str).
Notation upd := (upd str eqb).
Notation union_iter := (union_iter str eqb).
Notation rem := (rem str eqb).
Notation set_eqb := (set_eqb str eqb).
Notation first_of := (first_of str is_term).
Notation firstS_loop := (firstS_loop str eqb EMPTY is_term).
Notation firstS := (firstS str eqb EMPTY is_term).
Notation add_token := (add_token str eqb).
Notation add_set_env := (add_set_env str eqb).
Notation prod_step := (prod_step str eqb EMPTY is_term).
Notation round_from := (round_from str eqb EMPTY is_term).
Notation round := (round str eqb EMPTY is_term).
Notation iterate := (iterate str eqb EMPTY is_term).
Notation first_sets := (first_sets str eqb EMPTY is_term).
Notation first1 := (first1 str eqb EMPTY is_term).

Let mem_In := mem_In str eqb eqb_eq.
Let mem_false := mem_false str eqb eqb_eq.
Let add_In := add_In str eqb eqb_eq.
Let add_NoDup := add_NoDup str eqb eqb_eq.
Let add_all_In := add_all_In str eqb eqb_eq.
Let add_all_NoDup := add_all_NoDup str eqb eqb_eq.
Let eqb_refl := eqb_refl str eqb eqb_eq.
Let eqb_neq := eqb_neq str eqb eqb_eq.

(** two representations of the same set (the keys of a Go map in two orders) *)
Definition seteq (a b : list str) : Prop :=
  NoDup a /\ NoDup b /\ forall x, In x a <-> In x b.
Definition env_eq (fs fs' : env) : Prop := forall n, seteq (fs n) (fs' n).
Definition res_eq (r r' : env * bool) : Prop := env_eq (fst r) (fst r') /\ snd r = snd r'.

Lemma perm_in_iff : forall (o o' l l' : list str), Permutation o l -> Permutation o' l' ->
  (forall x, In x l <-> In x l') -> forall x, In x o <-> In x o'.
Proof.
  intros o o' l l' Ho Ho' H x. split; intro Hx.
  - apply (Permutation_in _ (Permutation_sym Ho')), H, (Permutation_in _ Ho), Hx.
  - apply (Permutation_in _ (Permutation_sym Ho)), H, (Permutation_in _ Ho'), Hx.
Qed.

Lemma seteq_perm : forall a b, seteq a b -> Permutation a b.
Proof. intros a b [H1 [H2 H3]]. apply NoDup_Permutation; assumption. Qed.

Lemma seteq_nil : seteq [] [].
Proof. split; [constructor|]. split; [constructor|]. reflexivity. Qed.

Lemma seteq_single : forall s, seteq [s] [s].
Proof.
  intros s. assert (NoDup [s]) by (constructor; [intros []|constructor]).
  split; [assumption|]. split; [assumption|]. reflexivity.
Qed.

(** SymbolSet.AddSet *)
Lemma seteq_add_all : forall a a' o o',
  seteq a a' -> (forall x, In x o <-> In x o') -> seteq (add_all o a) (add_all o' a').
Proof.
  intros a a' o o' [H1 [H2 H3]] Ho.
  split; [apply add_all_NoDup; exact H1|]. split; [apply add_all_NoDup; exact H2|].
  intros x. rewrite !add_all_In, H3, Ho. reflexivity.
Qed.

Theorem union_iter_order_independent : forall this this' that o o',
  seteq this this' -> Permutation o that -> Permutation o' that ->
  seteq (union_iter o this) (union_iter o' this').
Proof using str eqb EMPTY is_term eqb_eq. (* all parameters of the section, like the other results about FIRST *)
  intros this this' that o o' H Ho Ho'. unfold Perm.union_iter. apply seteq_add_all; [exact H|].
  exact (perm_in_iff _ _ _ _ Ho Ho' (fun x => iff_refl _)).
Qed.

Lemma seteq_add : forall a a' t, seteq a a' -> seteq (add t a) (add t a').
Proof.
  intros a a' t [H1 [H2 H3]].
  split; [apply add_NoDup; exact H1|]. split; [apply add_NoDup; exact H2|].
  intros x. rewrite !add_In, H3. reflexivity.
Qed.

Lemma mem_seteq : forall a a' x, (forall y, In y a <-> In y a') -> mem x a = mem x a'.
Proof. intros a a' x H. apply eq_true_iff_eq. rewrite !mem_In. apply H. Qed.

Lemma rem_In : forall x l y, In y (rem x l) <-> In y l /\ y <> x.
Proof.
  intros x l y. unfold Perm.rem. rewrite filter_In, negb_true_iff, eqb_neq.
  split; intros [H1 H2]; split; auto.
Qed.

Lemma seteq_rem : forall a a' x, seteq a a' -> seteq (rem x a) (rem x a').
Proof.
  intros a a' x [H1 [H2 H3]].
  split; [apply NoDup_filter; exact H1|]. split; [apply NoDup_filter; exact H2|].
  intros y. rewrite !rem_In, H3. reflexivity.
Qed.

Lemma set_eqb_respects : forall a a' b b',
  seteq a a' -> seteq b b' -> set_eqb a b = set_eqb a' b'.
Proof.
  intros a a' b b' Ha Hb. unfold Perm.set_eqb.
  rewrite (Permutation_length (seteq_perm _ _ Ha)), (Permutation_length (seteq_perm _ _ Hb)).
  f_equal. apply eq_true_iff_eq. rewrite !forallb_forall.
  destruct Ha as [_ [_ Ha]]. destruct Hb as [_ [_ Hb]].
  (* [Ha], [Hb] are equivalences: each direction uses them the other way round *)
  split; intros H x Hx; apply mem_In, Hb, mem_In, H, Ha, Hx.
Qed.

Lemma first_of_respects : forall fs fs' s,
  env_eq fs fs' -> seteq (first_of fs s) (first_of fs' s).
Proof.
  intros fs fs' s H. unfold Perm.first_of. destruct (is_term s); [apply seteq_single|apply H].
Qed.

Definition permuting1 (o : nat -> list str -> list str) : Prop :=
  forall i l, Permutation (o i l) l.

Lemma firstS_loop_respects : forall syms o o' fs fs' i acc acc',
  permuting1 o -> permuting1 o' -> env_eq fs fs' -> seteq acc acc' ->
  seteq (fst (firstS_loop o fs i acc syms)) (fst (firstS_loop o' fs' i acc' syms))
  /\ snd (firstS_loop o fs i acc syms) = snd (firstS_loop o' fs' i acc' syms).
Proof.
  induction syms as [|x r IH]; intros o o' fs fs' i acc acc' Ho Ho' Hfs Hacc.
  - simpl. split; [exact Hacc|reflexivity].
  - cbn [Perm.firstS_loop].
    pose proof (first_of_respects fs fs' x Hfs) as Hf.
    assert (Hacc' : seteq (union_iter (o i (first_of fs x)) acc)
                          (union_iter (o' i (first_of fs' x)) acc')).
    { unfold Perm.union_iter. apply seteq_add_all; [exact Hacc|].
      exact (perm_in_iff _ _ _ _ (Ho i _) (Ho' i _) (proj2 (proj2 Hf))). }
    rewrite (mem_seteq _ (first_of fs' x) EMPTY (proj2 (proj2 Hf))).
    destruct (mem EMPTY (first_of fs' x)).
    + apply IH; assumption.
    + simpl. split; [exact Hacc'|reflexivity].
Qed.

(** first.FirstS *)
Theorem firstS_respects : forall o o' fs fs' syms,
  permuting1 o -> permuting1 o' -> env_eq fs fs' ->
  seteq (firstS o fs syms) (firstS o' fs' syms).
Proof.
  intros o o' fs fs' syms Ho Ho' Hfs. unfold Perm.firstS.
  destruct (firstS_loop_respects syms o o' fs fs' 0 [] [] Ho Ho' Hfs seteq_nil) as [H1 H2].
  rewrite H2. destruct (snd (firstS_loop o' fs' 0 [] syms)); [exact H1|].
  apply seteq_rem. exact H1.
Qed.

Lemma upd_respects : forall fs fs' id s s',
  env_eq fs fs' -> seteq s s' -> env_eq (upd fs id s) (upd fs' id s').
Proof. intros fs fs' id s s' H Hs n. unfold Perm.upd. destruct (eqb n id); [exact Hs|apply H]. Qed.

Lemma env_eq_ext : forall (f f' g g' : env),
  (forall n, g n = f n) -> (forall n, g' n = f' n) -> env_eq f f' -> env_eq g g'.
Proof. intros f f' g g' H H' E n. rewrite H, H'. apply E. Qed.

Lemma add_token_fst : forall fs id t n,
  fst (add_token fs id t) n = upd fs id (add t (fs id)) n.
Proof.
  intros fs id t n. unfold Perm.add_token, TokMap.add, Perm.upd.
  destruct (mem t (fs id)); simpl; [|reflexivity].
  destruct (eqb n id) eqn:E; [|reflexivity]. apply eqb_eq in E. subst. reflexivity.
Qed.

Lemma add_token_snd : forall fs id t, snd (add_token fs id t) = negb (mem t (fs id)).
Proof. intros. unfold Perm.add_token. destruct (mem t (fs id)); reflexivity. Qed.

Lemma add_token_respects : forall fs fs' id t,
  env_eq fs fs' ->
  res_eq (add_token fs id t) (add_token fs' id t).
Proof.
  intros fs fs' id t H. split.
  - eapply env_eq_ext; [apply add_token_fst|apply add_token_fst|].
    apply upd_respects; [exact H|]. apply seteq_add. apply H.
  - rewrite !add_token_snd. f_equal. apply mem_seteq. apply (H id).
Qed.

(** FirstSets.AddSet *)
Lemma add_set_env_char : forall o fs id,
  (forall n, fst (add_set_env o fs id) n = upd fs id (add_all o (fs id)) n)
  /\ (snd (add_set_env o fs id) = true <-> exists x, In x o /\ ~ In x (fs id)).
Proof.
  induction o as [|t o IH] using rev_ind; intros fs id.
  - split.
    + intros n. simpl. unfold Perm.upd. destruct (eqb n id) eqn:E; [|reflexivity].
      apply eqb_eq in E. subst. reflexivity.
    + simpl. split; [discriminate|]. intros [x [[] _]].
  - destruct (IH fs id) as [IH1 IH2].
    unfold Perm.add_set_env in *. rewrite fold_left_app. cbn [fold_left].
    set (st := fold_left
                 (fun st t => (fst (add_token (fst st) id t), snd st || snd (add_token (fst st) id t)))
                 o (fs, false)) in *.
    cbn [fst snd].
    assert (Hid : fst st id = add_all o (fs id)).
    { rewrite IH1. unfold Perm.upd. rewrite eqb_refl. reflexivity. }
    split.
    + intros n. rewrite add_token_fst. unfold Perm.upd.
      destruct (eqb n id) eqn:E.
      * rewrite Hid. unfold TokMap.add_all. rewrite fold_left_app. reflexivity.
      * rewrite IH1. unfold Perm.upd. rewrite E. reflexivity.
    + rewrite orb_true_iff, add_token_snd, negb_true_iff, Hid, IH2. split.
      * intros [[x [H1 H2]]|H].
        -- exists x. split; [apply in_or_app; left; exact H1|exact H2].
        -- apply mem_false in H. exists t. split; [apply in_or_app; right; left; reflexivity|].
           intros Hi. apply H. apply add_all_In. left. exact Hi.
      * intros [x [H1 H2]]. apply in_app_or in H1. destruct H1 as [H1|[<-|[]]].
        -- left. exists x. split; assumption.
        -- destruct (mem t (add_all o (fs id))) eqn:E; [|right; reflexivity].
           left. apply mem_In in E. apply add_all_In in E. destruct E as [E|E]; [contradiction|].
           exists t. split; assumption.
Qed.

Lemma add_set_env_respects : forall o o' fs fs' id,
  env_eq fs fs' -> (forall x, In x o <-> In x o') ->
  res_eq (add_set_env o fs id) (add_set_env o' fs' id).
Proof.
  intros o o' fs fs' id H Ho.
  destruct (add_set_env_char o fs id) as [F1 S1].
  destruct (add_set_env_char o' fs' id) as [F2 S2].
  split.
  - eapply env_eq_ext; [exact F1|exact F2|].
    apply upd_respects; [exact H|]. apply seteq_add_all; [apply H|exact Ho].
  - apply eq_true_iff_eq. rewrite S1, S2.
    destruct (H id) as [_ [_ Hid]].
    split; intros [x [H1 H2]]; exists x; split.
    + apply Ho. exact H1.
    + intros Hi. apply H2. apply Hid. exact Hi.
    + apply Ho. exact H1.
    + intros Hi. apply H2. apply Hid. exact Hi.
Qed.

(** one production of one round of GetFirstSets *)
Theorem prod_step_respects : forall o o' fs fs' p,
  permuting1 o -> permuting1 o' -> env_eq fs fs' ->
  res_eq (prod_step o fs p) (prod_step o' fs' p).
Proof.
  intros o o' fs fs' [id body] Ho Ho' H. unfold Perm.prod_step. cbn [fst snd].
  destruct body as [|x r].
  - apply add_token_respects. exact H.
  - destruct (is_term x).
    + apply add_token_respects. exact H.
    + pose proof (firstS_respects o o' fs fs' (x :: r) Ho Ho' H) as Hf.
      rewrite (set_eqb_respects _ _ _ _ Hf (H id)).
      destruct (set_eqb (firstS o' fs' (x :: r)) (fs' id)).
      * split; [exact H|reflexivity].
      * apply add_set_env_respects; [exact H|]. exact (perm_in_iff _ _ _ _ (Ho _ _) (Ho' _ _) (proj2 (proj2 Hf))).
Qed.

Definition permuting2 (o : nat -> nat -> list str -> list str) : Prop :=
  forall k i l, Permutation (o k i l) l.
Definition permuting3 (o : nat -> nat -> nat -> list str -> list str) : Prop :=
  forall r k i l, Permutation (o r k i l) l.

Lemma round_from_respects : forall prods o o' k st st',
  permuting2 o -> permuting2 o' -> res_eq st st' ->
  res_eq (round_from o k st prods) (round_from o' k st' prods).
Proof.
  induction prods as [|p ps IH]; intros o o' k st st' Ho Ho' [H Hb].
  - split; assumption.
  - cbn [Perm.round_from].
    destruct (prod_step_respects (o k) (o' k) (fst st) (fst st') p (Ho k) (Ho' k) H) as [H1 H2].
    apply IH; [exact Ho|exact Ho'|]. split; [exact H1|]. cbn [snd]. rewrite Hb, H2. reflexivity.
Qed.

Theorem round_respects : forall prods o o' fs fs',
  permuting2 o -> permuting2 o' -> env_eq fs fs' ->
  res_eq (round o fs prods) (round o' fs' prods).
Proof.
  intros prods o o' fs fs' Ho Ho' H. unfold Perm.round. apply round_from_respects; [exact Ho|exact Ho'|]. split; [exact H|reflexivity].
Qed.

Lemma iterate_respects : forall fuel ord ord' r fs fs' prods,
  permuting3 ord -> permuting3 ord' -> env_eq fs fs' ->
  res_eq (iterate ord fuel r fs prods) (iterate ord' fuel r fs' prods).
Proof.
  induction fuel as [|f IH]; intros ord ord' r fs fs' prods Ho Ho' H.
  - simpl. split; [exact H|reflexivity].
  - cbn [Perm.iterate].
    destruct (round_respects prods (ord r) (ord' r) fs fs' (Ho r) (Ho' r) H) as [H1 H2].
    rewrite H2. destruct (snd (round (ord' r) fs' prods)).
    + apply IH; assumption.
    + simpl. split; [exact H1|reflexivity].
Qed.

(** GetFirstSets: whatever the iteration orders, every FIRST set is the same set, and the
    loop stops after the same number of rounds (same "out of fuel" flag for every fuel) *)
Theorem first_sets_order_independent : forall ord ord' fuel prods,
  permuting3 ord -> permuting3 ord' ->
  env_eq (fst (first_sets ord fuel prods)) (fst (first_sets ord' fuel prods))
  /\ snd (first_sets ord fuel prods) = snd (first_sets ord' fuel prods).
Proof.
  intros. unfold Perm.first_sets. apply iterate_respects; try assumption.
  intros n. apply seteq_nil.
Qed.

Corollary first_sets_NoDup : forall ord fuel prods n,
  permuting3 ord -> NoDup (fst (first_sets ord fuel prods) n).
Proof.
  intros ord fuel prods n Ho.
  destruct (first_sets_order_independent ord ord fuel prods Ho Ho) as [H _].
  destruct (H n) as [H1 _]. exact H1.
Qed.

(** items.first1 *)
Theorem first1_order_independent :
  forall (leb : str -> str -> bool),
  (forall a b, leb a b = true \/ leb b a = true) ->
  (forall a b c, leb a b = true -> leb b c = true -> leb a c = true) ->
  (forall a b, leb a b = true -> leb b a = true -> a = b) ->
  forall o o' (pm pm' : list str -> list str) fs fs' syms following,
  permuting1 o -> permuting1 o' ->
  (forall l, Permutation (pm l) l) -> (forall l, Permutation (pm' l) l) ->
  env_eq fs fs' ->
  first1 leb o pm fs syms following = first1 leb o' pm' fs' syms following.
Proof.
  intros leb T1 T2 T3 o o' pm pm' fs fs' syms following Ho Ho' Hp Hp' H.
  unfold Perm.first1. apply (isort_perm_eq str leb T1 T2 T3).
  pose proof (firstS_respects o o' fs fs' (syms ++ [following]) Ho Ho' H) as Hf.
  apply perm_trans with (firstS o fs (syms ++ [following])); [apply Hp|].
  apply perm_trans with (firstS o' fs' (syms ++ [following])); [apply seteq_perm; exact Hf|].
  apply Permutation_sym. apply Hp'.
Qed.

End FirstProofs.

(** ItemSet.Action *)

Theorem action_order_independent : forall pm pm' cs cs',
  (forall l, Permutation (pm l) l) -> (forall l, Permutation (pm' l) l) ->
  Permutation cs cs' ->
  match action_go pm cs, action_go pm' cs' with
  | None, None => True
  | Some (w, cf), Some (w', cf') => w = w' /\ Permutation cf cf' /\ length cf = length cf'
  | _, _ => False
  end.
Proof.
  intros pm pm' cs cs' Hp Hp' HP. unfold action_go.
  pose proof (row_action_perm cs cs' HP) as H.
  destruct (row_action cs) as [[w cf]|], (row_action cs') as [[w' cf']|]; try exact H.
  destruct H as [H1 H2]. split; [exact H1|].
  assert (P : Permutation (pm cf) (pm' cf')).
  { apply perm_trans with cf; [apply Hp|]. apply perm_trans with cf'; [exact H2|].
    apply Permutation_sym. apply Hp'. }
  split; [exact P|apply Permutation_length; exact P].
Qed.


Lemma lex_leb_cons : forall x a y b,
  lex_leb (x :: a) (y :: b) = match (x ?= y)%Z with Lt => true | Eq => lex_leb a b | Gt => false end.
Proof.
  intros. simpl. unfold Z.ltb. destruct (Z.compare_spec x y) as [->|_|H]; [rewrite Z.eqb_refl| |]; try reflexivity.
  rewrite (proj2 (Z.eqb_neq x y) (not_eq_sym (Z.lt_neq _ _ H))). reflexivity.
Qed.

Lemma lex_leb_total : forall a b, lex_leb a b = true \/ lex_leb b a = true.
Proof.
  induction a as [|x a IH]; intros [|y b]; auto.
  rewrite !lex_leb_cons, (Z.compare_antisym x y). destruct (x ?= y)%Z; simpl; auto.
Qed.

Lemma lex_leb_trans : forall a b c,
  lex_leb a b = true -> lex_leb b c = true -> lex_leb a c = true.
Proof.
  induction a as [|x a IH]; intros [|y b] [|z c]; try reflexivity; try discriminate.
  rewrite !lex_leb_cons.
  destruct (Z.compare_spec x y) as [->|Hxy|_]; [|destruct (Z.compare_spec y z) as [<-|Hyz|_]|]; try discriminate.
  - destruct (y ?= z)%Z; [apply IH|reflexivity|discriminate].
  - rewrite (proj2 (Z.compare_lt_iff x y) Hxy). reflexivity.
  - rewrite (proj2 (Z.compare_lt_iff x z) (Z.lt_trans _ _ _ Hxy Hyz)). reflexivity.
Qed.

Lemma lex_leb_antisym : forall a b, lex_leb a b = true -> lex_leb b a = true -> a = b.
Proof.
  induction a as [|x a IH]; intros [|y b]; try reflexivity; try discriminate.
  rewrite !lex_leb_cons, (Z.compare_antisym x y).
  destruct (Z.compare_spec x y) as [->|_|_]; try discriminate. intros H1 H2. f_equal. apply IH; assumption.
Qed.

Theorem token_ids_z_order_independent : forall order order',
  Permutation order order' -> token_ids_z order = token_ids_z order'.
Proof. exact (token_ids_order_independent _ lex_leb lex_leb_total lex_leb_trans lex_leb_antisym). Qed.

Theorem terminals_z_lex_order_independent : forall prods order order',
  Permutation order order' ->
  terminals_z prods (token_ids_z order) = terminals_z prods (token_ids_z order').
Proof.
  exact (terminals_lex_order_independent _ lex_leb lex_leb_total lex_leb_trans lex_leb_antisym zstr_eqb INVALID_z EOF_z EMPTY_z).
Qed.

Local Open Scope Z_scope.
(** "id", "a", "b", "ab" in two map orders *)
Example ex_token_ids :
  token_ids_z [[105; 100]; [97]; [98]; [97; 98]] = [[97]; [97; 98]; [98]; [105; 100]]
  /\ token_ids_z [[98]; [97; 98]; [105; 100]; [97]] = [[97]; [97; 98]; [98]; [105; 100]].
Proof. split; vm_compute; reflexivity. Qed.

(** FIRST sets of  S : A b | c ;  A : empty | a ;  with identity and reversing oracles
    (names: S=[83] A=[65] a=[97] b=[98] c=[99] empty=[0]); read at S *)
Definition ex_prods : list (list Z * list (list Z)) :=
  [([83], [[65]; [98]]); ([83], [[99]]); ([65], []); ([65], [[97]])].
Definition ex_is_term (s : list Z) : bool := negb (zstr_eqb s [83] || zstr_eqb s [65]).
Example ex_first_id :
  let r := first_sets (list Z) zstr_eqb [0] ex_is_term (fun _ _ _ l => l) 10 ex_prods in
  (fst r [83], fst r [65], snd r) = ([[99]; [97]; [98]], [[0]; [97]], false).
Proof. vm_compute. reflexivity. Qed.
Example ex_first_rev :
  let r := first_sets (list Z) zstr_eqb [0] ex_is_term (fun _ _ _ l => rev l) 10 ex_prods in
  (fst r [83], fst r [65], snd r) = ([[99]; [98]; [97]], [[0]; [97]], false).
Proof. vm_compute. reflexivity. Qed.

Print Assumptions sort_unique.
Print Assumptions isort_perm_eq.
Print Assumptions token_ids_order_independent.
Print Assumptions terminals_lex_order_independent.
Print Assumptions union_iter_order_independent.
Print Assumptions firstS_respects.
Print Assumptions prod_step_respects.
Print Assumptions round_respects.
Print Assumptions first_sets_order_independent.
Print Assumptions first1_order_independent.
Print Assumptions action_order_independent.
Print Assumptions token_ids_z_order_independent.
Print Assumptions terminals_z_lex_order_independent.
