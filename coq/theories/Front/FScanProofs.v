(** Proofs about the model of gocc's hand-written front-end scanner (Front/FScan.v): [fscan_all] never runs out
    of fuel; token literals are the source bytes at strictly increasing offsets; layout ([is_layout]: blanks, line
    comments INCLUDING their newline, block comments) inserted at a Scan entry point ([boundary]: offset 0 or the end
    of a token that [fscan_all] reports) leaves the types and literals of the tokens ([toks]) as they are.  Read
    right to left the layout equations are the deletion of layout.  All input bytes are assumed nonnegative
    ([nonneg]); Go bytes are 0..255.
    NOT covered, with counterexamples [not_covered_*] at the end of the file: a comment right after the lone slash
    token; layout appended at end of file directly after the last token (only an unterminated literal/comment makes
    a difference there, but the theorem needs a nonempty rest: put the layout in front of an existing final
    newline); the point between a line comment and its newline; positions inside tokens, literals, SDTs, comments.
    The layout theorems rest on a simulation between two runs on inputs c ++ X and c ++ Y that holds as long as the
    first run does not go beyond X ([scan_sim]); with X = Y = [] it also gives independence of the tokens from
    positions, error count and fuel. *)
From Coq Require Import List ZArith Lia Bool Arith Sorted.
From Gocc Require Import Base.Utf8 Lex.ScanProofs LR.ValidateProofs Front.FUnicode Front.FScan.
Import ListNotations.
Open Scope Z_scope.

(** No overlong encodings: a lead byte from 128 on never decodes to an ASCII character. *)
Lemma decode_rune_ge128 : forall b t, 128 <= b -> 128 <= fst (decode_rune (b :: t)).
Proof.
  intros b t Hb. apply decode_rune_shapes; unfold rune_error; cbn [fst]; try lia.
  - intros b1 b2 u _ R [C1 _] C2. destruct (Z.eqb_spec b 224); lia.
  - intros b1 b2 b3 u _ R [C1 _] C2 C3. destruct (Z.eqb_spec b 240); lia.
Qed.

(** a hard boundary for the decoder: the end of input, or a byte that is not a UTF-8 continuation byte *)
Definition hard (l : list Z) : Prop :=
  match l with [] => True | b :: _ => cont b = false end.

Definition nonneg (l : list Z) : Prop := Forall (fun b => 0 <= b) l.

Lemma nonneg_app : forall a b, nonneg (a ++ b) <-> nonneg a /\ nonneg b.
Proof. intros a b. unfold nonneg. apply Forall_app. Qed.

Lemma nonneg_tl : forall a l, nonneg (a :: l) -> nonneg l.
Proof. intros a l H. exact (Forall_inv_tail H). Qed.

Lemma nonneg_app_r : forall a b, nonneg (a ++ b) -> nonneg b.
Proof. intros a b H. apply nonneg_app in H. apply H. Qed.

Lemma nonneg_skipn : forall n l, nonneg l -> nonneg (skipn n l).
Proof.
  intros n l H. rewrite <- (firstn_skipn n l) in H. apply Forall_app in H. tauto.
Qed.

(** [c1], [c2]: the decoder's tests of the lead byte, [b0 =? 224] and the like *)
Lemma in_rng_cont : forall (c1 c2 : bool) lo hi b, 128 <= lo -> hi <= 191 -> cont b = false ->
  in_rng (if c1 then lo else 128) (if c2 then hi else 191) b = false.
Proof.
  intros c1 c2 lo hi b Hl Hh C. unfold cont, in_rng in *.
  apply andb_false_iff in C. apply andb_false_iff.
  destruct C as [C|C]; [left; destruct c1 | right; destruct c2]; apply Z.leb_gt in C; apply Z.leb_gt; lia.
Qed.

(** a byte that continues no sequence fails every test the decoder makes on it *)
Lemma decode_rune_hard : forall b c X, hard X -> decode_rune (b :: c ++ X) = decode_rune (b :: c).
Proof.
  intros b c X HX. unfold decode_rune.
  destruct (b <? 128); [reflexivity|].
  destruct (in_rng 194 223 b).
  { destruct c as [|b1 c]; [|reflexivity]. destruct X as [|x X]; [reflexivity|].
    cbn [app]. cbn in HX. rewrite HX. reflexivity. }
  destruct (in_rng 224 239 b).
  { destruct c as [|b1 [|b2 c]]; [| |reflexivity]; cbn [app].
    - destruct X as [|x [|x2 X]]; [reflexivity | reflexivity |]. cbv zeta.
      rewrite (in_rng_cont _ _ 160 159 x) by (exact HX || discriminate). reflexivity.
    - destruct X as [|x X]; [reflexivity|]. cbv zeta. cbn in HX. rewrite HX, andb_false_r. reflexivity. }
  destruct (in_rng 240 244 b); [|reflexivity].
  destruct c as [|b1 [|b2 [|b3 c]]]; [| | |reflexivity]; cbn [app].
  - destruct X as [|x [|x2 [|x3 X]]]; [reflexivity | reflexivity | reflexivity |]. cbv zeta.
    rewrite (in_rng_cont _ _ 144 143 x) by (exact HX || discriminate). reflexivity.
  - destruct X as [|x [|x2 X]]; [reflexivity | reflexivity|]. cbv zeta. cbn in HX.
    rewrite HX, andb_false_r. reflexivity.
  - destruct X as [|x X]; [reflexivity|]. cbv zeta. cbn in HX. rewrite HX, andb_false_r. reflexivity.
Qed.

Lemma read_nil : read [] = (-1, 0%nat).
Proof. reflexivity. Qed.

Lemma read_width : forall b t, (1 <= snd (read (b :: t)) <= length (b :: t))%nat.
Proof.
  intros b t. unfold read. destruct (b =? 0); [cbn; lia|].
  destruct (b >=? 80); [|cbn; lia].
  destruct (decode_rune (b :: t)) as [r w] eqn:E. apply (decode_rune_progress _ r w); [discriminate | exact E].
Qed.

Lemma read_lt128 : forall b t, b < 128 -> read (b :: t) = (b, 1%nat).
Proof.
  intros b t H. unfold read. destruct (Z.eqb_spec b 0) as [->|_]; [reflexivity|].
  destruct (b >=? 80); [|reflexivity]. unfold decode_rune.
  apply Z.ltb_lt in H. rewrite H. reflexivity.
Qed.

Lemma read_ge128 : forall b t, 128 <= b -> 128 <= fst (read (b :: t)).
Proof.
  intros b t Hb. unfold read.
  destruct (Z.eqb_spec b 0); [lia|]. destruct (Z.geb_spec b 80); [|lia].
  apply decode_rune_ge128. exact Hb.
Qed.

Lemma read_nonneg : forall b t, 0 <= b -> 0 <= fst (read (b :: t)).
Proof.
  intros b t Hb. destruct (Z_lt_le_dec b 128) as [L|L].
  - rewrite (read_lt128 b t L). exact Hb.
  - pose proof (read_ge128 b t L). lia.
Qed.

Lemma read_hard : forall b c X, hard X -> read (b :: c ++ X) = read (b :: c).
Proof.
  intros b c X HX. unfold read. destruct (b =? 0); [reflexivity|].
  destruct (b >=? 80); [apply decode_rune_hard; exact HX | reflexivity].
Qed.

Lemma read_err_hard : forall b c X Y, hard X -> hard Y ->
  read_err (b :: c ++ X) = read_err (b :: c ++ Y).
Proof.
  intros b c X Y HX HY. unfold read_err.
  rewrite (decode_rune_hard b c X HX), (decode_rune_hard b c Y HY). reflexivity.
Qed.

Definition len (st : state) : nat := length (s_cur st).

Lemma next_cur : forall st, s_cur (next st) = skipn (snd (read (s_cur st))) (s_cur st).
Proof.
  intro st. unfold next. destruct (skipn (snd (read (s_cur st))) (s_cur st)); reflexivity.
Qed.

Lemma next_po : forall st, s_po (next st) = s_po st + Z.of_nat (snd (read (s_cur st))).
Proof.
  intro st. unfold next. destruct (skipn (snd (read (s_cur st))) (s_cur st)); reflexivity.
Qed.

Lemma add_err_cur : forall st, s_cur (add_err st) = s_cur st.
Proof. reflexivity. Qed.
Lemma add_err_po : forall st, s_po (add_err st) = s_po st.
Proof. reflexivity. Qed.
Lemma ch_add_err : forall st, ch (add_err st) = ch st.
Proof. reflexivity. Qed.

Lemma ch_eof : forall st, s_cur st = [] -> ch st = -1.
Proof. intros st H. unfold ch. rewrite H. reflexivity. Qed.

Definition adv (st r : state) : Prop :=
  exists p, s_cur st = p ++ s_cur r /\ s_po r = s_po st + Z.of_nat (length p).

Lemma adv_same : forall a b, s_cur b = s_cur a -> s_po b = s_po a -> adv a b.
Proof. intros a b Hc Hp. exists []. rewrite Hc, Hp. split; [reflexivity | cbn; lia]. Qed.

Lemma adv_refl : forall st, adv st st.
Proof. intro st. apply adv_same; reflexivity. Qed.

Lemma adv_trans : forall a b c, adv a b -> adv b c -> adv a c.
Proof.
  intros a b c (p & Hp & Pp) (q & Hq & Pq). exists (p ++ q). split.
  - rewrite Hp, Hq, app_assoc. reflexivity.
  - rewrite app_length. lia.
Qed.

Lemma adv_len : forall st r, adv st r -> (len r <= len st)%nat.
Proof. intros st r (p & Hp & _). unfold len. rewrite Hp, app_length. lia. Qed.

Lemma adv_next : forall a st, adv a st -> adv a (next st).
Proof.
  intros a st A. apply (adv_trans a st _ A).
  exists (firstn (snd (read (s_cur st))) (s_cur st)). split.
  - rewrite next_cur, firstn_skipn. reflexivity.
  - rewrite next_po, firstn_length. f_equal. f_equal.
    destruct (s_cur st) as [|b t]; [reflexivity|].
    pose proof (read_width b t). lia.
Qed.

Lemma adv_add_err : forall a st, adv a st -> adv a (add_err st).
Proof. intros a st A. apply (adv_trans a st _ A), adv_same; reflexivity. Qed.

Lemma next_len_lt : forall st, ch st <> -1 -> (len (next st) < len st)%nat.
Proof.
  intros st H. unfold ch, len in *. rewrite next_cur.
  destruct (s_cur st) as [|b t]; [contradiction|].
  rewrite skipn_length. pose proof (read_width b t). lia.
Qed.

(** Where a loop that consumes the character it starts on gets to at least. *)
Definition start (st : state) : state := if ch st >=? 0 then next st else st.

Lemma start_next : forall st, 0 <= ch st -> start st = next st.
Proof. intros st P. unfold start. destruct (Z.geb_spec (ch st) 0); [reflexivity | lia]. Qed.

Lemma adv_start : forall a st, adv a st -> adv a (start st).
Proof. intros a st A. unfold start. destruct (ch st >=? 0); [apply adv_next, A | exact A]. Qed.

Lemma adv_start_of_next : forall st r, adv (next st) r -> adv (start st) r.
Proof.
  intros st r A. unfold start. destruct (ch st >=? 0); [|eapply adv_trans; [apply adv_next, adv_refl|]]; exact A.
Qed.

Lemma adv_of_adv_start : forall st r, adv (start st) r -> adv st r.
Proof. intros st r A. eapply adv_trans; [apply adv_start, adv_refl | exact A]. Qed.

Lemma adv_start_lt : forall st r, adv (start st) r -> 0 <= ch st -> (len r < len st)%nat.
Proof.
  intros st r A P. rewrite (start_next st P) in A. apply adv_len in A.
  pose proof (next_len_lt st). lia.
Qed.

(* [auto with adv] peels state transformers off the right: [adv a st -> adv a (f st)]; more of them are added below *)
Local Hint Resolve adv_refl adv_next adv_add_err adv_start : adv.

Lemma ch_ascii_inv : forall st k, ch st = k -> 0 <= k < 128 -> exists t, s_cur st = k :: t.
Proof.
  intros st k H K. unfold ch in H. destruct (s_cur st) as [|b t]; [cbn in H; lia|].
  destruct (Z_lt_le_dec b 128) as [L|L].
  - rewrite (read_lt128 b t L) in H. cbn [fst] in H. subst. eauto.
  - pose proof (read_ge128 b t L). lia.
Qed.

Lemma next_ascii : forall st k t, s_cur st = k :: t -> k < 128 -> s_cur (next st) = t.
Proof.
  intros st k t H K. rewrite next_cur, H, (read_lt128 k t K). reflexivity.
Qed.

Lemma ch_nonneg_of : forall e, nonneg (s_cur e) -> (0 < len e)%nat -> 0 <= ch e.
Proof.
  intros e N L. unfold ch, len in *. destruct (s_cur e) as [|b t]; [cbn in L; lia|].
  inversion N; subst. apply read_nonneg; assumption.
Qed.

Lemma adv_nonneg_of : forall a e, adv a e -> nonneg (s_cur a) -> nonneg (s_cur e).
Proof.
  intros a e (p & Hp & _) N. rewrite Hp in N. apply Forall_app in N. tauto.
Qed.

Lemma ch_lt128 : forall st b t, s_cur st = b :: t -> b < 128 -> ch st = b.
Proof. intros st b t E L. unfold ch. rewrite E, (read_lt128 b t L). reflexivity. Qed.

Lemma read_not_ascii : forall b t k, b <> k -> 0 <= k < 128 -> fst (read (b :: t)) <> k.
Proof.
  intros b t k NE K. destruct (Z_lt_le_dec b 128) as [L|L].
  - rewrite (read_lt128 b t L). exact NE.
  - pose proof (read_ge128 b t L). lia.
Qed.

Lemma hard_lt128 : forall b t, b < 128 -> hard (b :: t).
Proof. intros b t L. unfold hard, cont, in_rng. apply andb_false_iff. left. apply Z.leb_gt. lia. Qed.

Lemma next_skipn : forall st b c X, s_cur st = (b :: c) ++ X -> hard X ->
  s_cur (next st) = skipn (snd (read (b :: c))) (b :: c) ++ X.
Proof.
  intros st b c X E HX. pose proof (read_width b c) as W.
  rewrite next_cur, E. cbn [app]. rewrite (read_hard b c X HX).
  change (b :: c ++ X) with ((b :: c) ++ X). rewrite skipn_app.
  rewrite (proj2 (Nat.sub_0_le _ _) (proj2 W)). reflexivity.
Qed.

(** [runs from fuel st o], for the result [o] of a loop run with [fuel] on [st]: a final state is reached from [from]
    ([st] itself, or [start st] for the loops that consume the character they start on), and the loop gives up only
    if the fuel does not exceed the remaining input. *)
Definition runs (from : state) (fuel : nat) (st : state) (o : option state) : Prop :=
  match o with Some r => adv from r | None => (fuel <= len st)%nat end.

Lemma runs_adv : forall from fuel st o r, runs from fuel st o -> o = Some r -> adv from r.
Proof. intros from fuel st o r R ->. exact R. Qed.
Arguments runs_adv {from fuel st o r}.

Lemma runs_step : forall from from' f st st' o, runs from' f st' o ->
  adv from from' -> adv (next st) st' -> ch st <> -1 -> runs from (S f) st o.
Proof.
  intros from from' f st st' [r|] R A A' N; cbn in *; [eapply adv_trans; eassumption|].
  apply adv_len in A'. apply next_len_lt in N. lia.
Qed.

Lemma runs_pre : forall from from' fuel st st' o, runs from' fuel st' o ->
  adv from from' -> adv st st' -> runs from fuel st o.
Proof.
  intros from from' fuel st st' [r|] R A A'; cbn in *; [eapply adv_trans; eassumption|].
  apply adv_len in A'. lia.
Qed.

(** [skip_ws] and [ident_loop] are one loop: consume while the character satisfies [p]. *)
Definition while_ch (p : Z -> bool) : nat -> state -> option state :=
  fix go fuel st :=
    match fuel with O => None | S f => if p (ch st) then go f (next st) else Some st end.

Lemma skip_ws_while : skip_ws = while_ch is_blank.
Proof. reflexivity. Qed.

Lemma ident_loop_while : ident_loop = while_ch ident_char.
Proof. reflexivity. Qed.

Lemma while_runs : forall p, p (-1) = false ->
  forall fuel st, runs (if p (ch st) then next st else st) fuel st (while_ch p fuel st).
Proof.
  intros p Hp. induction fuel as [|f IH]; intro st; cbn [while_ch runs]; [apply Nat.le_0_l|].
  destruct (p (ch st)) eqn:B; [|apply adv_refl].
  eapply runs_step; [apply IH | destruct (p (ch (next st))); auto with adv | apply adv_refl|].
  intro E. rewrite E, Hp in B. discriminate B.
Qed.

Lemma while_adv : forall p, p (-1) = false -> forall fuel st r, while_ch p fuel st = Some r -> adv st r.
Proof.
  intros p Hp fuel st r H. pose proof (while_runs p Hp fuel st) as R. rewrite H in R. cbn [runs] in R.
  destruct (p (ch st)); [eapply adv_trans; [apply adv_next, adv_refl|]|]; exact R.
Qed.

Lemma skip_ws_mono : forall f f' st r, skip_ws f st = Some r -> (f <= f')%nat -> skip_ws f' st = Some r.
Proof.
  induction f as [|f IH]; intros f' st r H L; [discriminate|].
  destruct f' as [|f']; [lia|]. cbn [skip_ws] in *.
  destruct (is_blank (ch st)); [apply IH; [exact H | lia] | exact H].
Qed.

Lemma line_directive_cur_po : forall c0 col0 st,
  s_cur (line_directive c0 col0 st) = s_cur st /\ s_po (line_directive c0 col0 st) = s_po st.
Proof.
  intros c0 col0 st. unfold line_directive.
  destruct (col0 =? 1); [|auto]. destruct (has_prefix _ _); [|auto].
  destruct (after_colon _); [|auto]. destruct (atoi_pos _); auto.
Qed.

Lemma adv_line_directive : forall a c0 col0 st, adv a st -> adv a (line_directive c0 col0 st).
Proof.
  intros a c0 col0 st A. apply (adv_trans a st _ A), adv_same; apply line_directive_cur_po.
Qed.

Lemma adv_next_add_err : forall a st, adv a (next st) -> adv a (next (add_err st)).
Proof.
  intros a st A. apply (adv_trans a _ _ A), adv_same; [rewrite !next_cur | rewrite !next_po]; reflexivity.
Qed.

Lemma adv_expect : forall c st, adv (start st) (expect c st).
Proof.
  intros c st. unfold start, expect.
  destruct (ch st >=? 0), (ch st =? c); auto using adv_next_add_err with adv.
Qed.

Lemma adv_char_finish : forall a n st, adv a st -> adv a (char_finish n st).
Proof. intros a n st A. unfold char_finish. destruct (n =? 1); auto with adv. Qed.

Local Hint Resolve adv_line_directive adv_char_finish : adv.

Lemma line_comment_runs : forall fuel c0 col0 st, runs (start st) fuel st (line_comment fuel c0 col0 st).
Proof.
  induction fuel as [|f IH]; intros c0 col0 st; cbn [line_comment runs]; [apply Nat.le_0_l|]. unfold start.
  destruct (Z.geb_spec (ch st) 0) as [P|P]; [|apply adv_add_err, adv_refl].
  destruct (ch (next st) =? 10); [cbn [runs]; auto with adv|].
  eapply runs_step; [apply IH | auto with adv | apply adv_refl | lia].
Qed.

Lemma block_comment_runs : forall fuel st, runs (start st) fuel st (block_comment fuel st).
Proof.
  induction fuel as [|f IH]; intro st; cbn [block_comment runs]; [apply Nat.le_0_l|]. unfold start.
  destruct (Z.geb_spec (ch st) 0) as [P|P]; [|apply adv_add_err, adv_refl].
  destruct ((ch st =? 42) && (ch (next st) =? 47)); [cbn [runs]; auto with adv|].
  eapply runs_step; [apply IH | auto with adv | apply adv_refl | lia].
Qed.

Lemma block_comment_progress : forall fuel a ra,
  block_comment fuel a = Some ra -> 0 <= ch a -> (len ra < len a)%nat.
Proof.
  intros fuel a ra H P. apply adv_start_lt; [|exact P].
  exact (runs_adv (block_comment_runs fuel a) H).
Qed.

Lemma scan_comment_runs : forall F st0 st, runs (start st) F st (scan_comment F st0 st).
Proof.
  intros F st0 st. unfold scan_comment. destruct (ch st =? 47); [apply line_comment_runs|].
  eapply runs_pre; [apply block_comment_runs | apply adv_start, adv_expect|].
  eapply adv_trans; [apply adv_start, adv_refl | apply adv_expect].
Qed.

Lemma adv_esc_digits : forall a i base x st, adv a st -> adv a (fst (esc_digits i base x st)).
Proof.
  intros a. induction i as [|i IH]; intros base x st A; cbn [esc_digits]; [exact A|].
  destruct (fdigit_val (ch st) >? base); cbn [fst]; auto with adv.
Qed.

(** [esc_number] with the digits' start value [x] free (it fixes 0): the octal escape enters after its first digit *)
Lemma adv_esc_number_from : forall a i base x mx st, adv a st ->
  adv a (match esc_digits i base x st with
         | (st', None) => st'
         | (st', Some y) => if (y >? mx) || ((55296 <=? y) && (y <? 57344)) then add_err st' else st'
         end).
Proof.
  intros a i base x mx st A. pose proof (adv_esc_digits a i base x st A) as D.
  destruct (esc_digits i base x st) as [st' [y|]]; cbn [fst] in D; [|exact D].
  destruct (_ || _); auto with adv.
Qed.

Lemma adv_esc_number : forall a i base mx st, adv a st -> adv a (esc_number i base mx st).
Proof. intros a i base mx. exact (adv_esc_number_from a i base 0 mx). Qed.

Lemma adv_esc_number_first : forall a i base mx st, (fdigit_val (ch st) >? base) = false ->
  adv a (next st) -> adv a (esc_number (S i) base mx st).
Proof.
  intros a i base mx st D A. unfold esc_number. cbn [esc_digits]. rewrite D.
  apply adv_esc_number_from, A.
Qed.

(** Every escape consumes the character after the backslash; the octal one because its first digit, 0..7, passes
    the test [d > base]. *)
Lemma adv_scan_escape : forall a q st, adv a (next st) -> adv a (scan_escape q st).
Proof.
  intros a q st A. unfold scan_escape.
  destruct (_ || _); [exact A|].
  destruct ((48 <=? ch st) && (ch st <=? 55)) eqn:O.
  { apply adv_esc_number_first; [|exact A].
    unfold fdigit_val. replace ((48 <=? ch st) && (ch st <=? 57)) with true by lia. lia. }
  destruct (ch st =? 120); [apply adv_esc_number, A|].
  destruct (ch st =? 117); [apply adv_esc_number, A|].
  destruct (ch st =? 85); [apply adv_esc_number, A | apply adv_add_err, A].
Qed.

Local Hint Resolve adv_scan_escape : adv.

Lemma scan_escape_progress : forall q a, 0 <= ch a -> (len (scan_escape q a) < len a)%nat.
Proof.
  intros q a P. apply adv_start_lt; [|exact P]. rewrite (start_next a P). apply adv_scan_escape, adv_refl.
Qed.

Lemma scan_string_runs : forall fuel st, runs (next st) fuel st (scan_string fuel st).
Proof.
  induction fuel as [|f IH]; intro st; cbn [scan_string runs]; [apply Nat.le_0_l|].
  destruct (ch st =? 34); [apply adv_refl|].
  destruct ((ch st =? 10) || (ch st <? 0)) eqn:B; [cbn [runs]; auto with adv|].
  assert (N : ch st <> -1) by (intro E; rewrite E in B; discriminate B).
  destruct (ch st =? 92); (eapply runs_step; [apply IH | | | exact N]); auto with adv.
Qed.

Lemma scan_char_runs : forall fuel n st, runs (next st) fuel st (scan_char fuel n st).
Proof.
  induction fuel as [|f IH]; intros n st; cbn [scan_char runs]; [apply Nat.le_0_l|].
  destruct (ch st =? 39); [cbn [runs]; auto with adv|].
  destruct ((ch st =? 10) || (ch st <? 0)) eqn:B; [cbn [runs]; auto with adv|].
  assert (N : ch st <> -1) by (intro E; rewrite E in B; discriminate B).
  destruct (ch st =? 92); (eapply runs_step; [apply IH | | | exact N]); auto with adv.
Qed.

Lemma scan_raw_runs : forall fuel st, runs (next st) fuel st (scan_raw fuel st).
Proof.
  induction fuel as [|f IH]; intro st; cbn [scan_raw runs]; [apply Nat.le_0_l|].
  destruct (ch st =? 96); [apply adv_refl|].
  destruct (ch st <? 0) eqn:B; [cbn [runs]; auto with adv|].
  eapply runs_step; [apply IH | | |]; auto with adv. intro E; rewrite E in B; discriminate B.
Qed.

Lemma sdt_loop_runs : forall fuel st, runs (next st) fuel st (sdt_loop fuel st).
Proof.
  induction fuel as [|f IH]; intro st; cbn [sdt_loop runs]; [apply Nat.le_0_l|].
  destruct (ch st <? 0) eqn:B; [apply adv_next_add_err, adv_refl|].
  assert (N : ch st <> -1) by (intro E; rewrite E in B; discriminate B).
  destruct (ch st =? 62); [destruct (ch (next st) =? 62); [cbn [runs]; auto with adv|]|];
    (eapply runs_step; [apply IH | | | exact N]); auto with adv.
Qed.

Lemma scan_sdt_runs : forall F st, runs (next st) F st (scan_sdt F st).
Proof.
  intros F st. eapply runs_pre; [apply sdt_loop_runs | |]; auto with adv.
Qed.

(** The body of Scan after skipWhitespace, with the [goto scanAgain] abstracted: the text of [FScan.scan] with
    [rec] for the recursive call ([scan_unfold] checks that the two agree). *)
Definition scan_tok (F : nat) (rec : state -> option (ftok * state)) (st0 : state)
  : option (ftok * state) :=
  let c := ch st0 in
  if (c =? 33) || is_letter c then
    do st1 <- ident_loop F st0;
    Some (mk_tok (ident_type (lit_between st0 st1) c) st0 st1, st1)
  else
    let st1 := next st0 in
    if c =? -1 then Some (mk_tok 0 st0 st1, st1)
    else if c =? 34 then do st2 <- scan_string F st1; Some (mk_tok 21 st0 st2, st2)
    else if c =? 39 then do st2 <- scan_char F 0 st1; Some (mk_tok 9 st0 st2, st2)
    else if c =? 96 then do st2 <- scan_raw F st1; Some (mk_tok 21 st0 st2, st2)
    else if c =? 47 then
      if (ch st1 =? 47) || (ch st1 =? 42) then do st2 <- scan_comment F st0 st1; rec st2
      else Some (mk_tok (-1) st0 st1, st1)
    else if c =? 60 then
      if ch st1 =? 60 then do st2 <- scan_sdt F st1; Some (mk_tok 18 st0 st2, st2)
      else if ch st1 =? 61 then let st2 := next st1 in Some (mk_tok (-1) st0 st2, st2)
      else Some (mk_tok (-1) st0 st1, st1)
    else
      match punct_type c with
      | Some ty => Some (mk_tok ty st0 st1, st1)
      | None => let st2 := add_err st1 in Some (mk_tok (-1) st0 st2, st2)
      end.

Lemma scan_unfold : forall F f st,
  scan F (S f) st = do st0 <- skip_ws F st; scan_tok F (scan F f) st0.
Proof. reflexivity. Qed.

Lemma ident_type_range : forall l c, -1 <= ident_type l c <= 21 /\ ident_type l c <> 0.
Proof.
  intros l c. unfold ident_type.
  repeat match goal with |- context [if ?b then _ else _] => destruct b end; lia.
Qed.

Lemma punct_type_range : forall c ty, punct_type c = Some ty -> -1 <= ty <= 21 /\ ty <> 0.
Proof.
  intros c ty. unfold punct_type.
  repeat match goal with |- (if ?b then _ else _) = _ -> _ => destruct b end;
    intro H; [injection H as <-; lia .. | discriminate H].
Qed.

Definition tok_at (st0 : state) (t : ftok) (ra : state) : Prop :=
  exists ty, t = mk_tok ty st0 ra /\ -1 <= ty <= 21 /\ (ty = 0 <-> ch st0 = -1) /\ adv (next st0) ra.

Definition tok_post (F : nat) (rec : state -> option (ftok * state)) (st0 : state)
    (o : option (ftok * state)) : Prop :=
  (exists st2, ch st0 <> -1 /\ adv (next st0) st2 /\ rec st2 = o) \/
  match o with
  | Some (t, ra) => tok_at st0 t ra
  | None => (F <= len st0)%nat
  end.

Lemma tok_post_tok : forall F rec st0 ty ra, ch st0 <> -1 -> ty <> 0 -> -1 <= ty <= 21 -> adv (next st0) ra ->
  tok_post F rec st0 (Some (mk_tok ty st0 ra, ra)).
Proof.
  intros F rec st0 ty ra N T0 T A. right. exists ty. split; [reflexivity|]. split; [exact T|].
  split; [split; intro; contradiction | exact A].
Qed.

Lemma tok_post_bind : forall F rec st0 ty o, ch st0 <> -1 -> ty <> 0 -> -1 <= ty <= 21 ->
  runs (next (next st0)) F (next st0) o ->
  tok_post F rec st0 (do st2 <- o; Some (mk_tok ty st0 st2, st2)).
Proof.
  intros F rec st0 ty [st2|] N T0 T R; cbn [opt_bind runs] in *.
  - apply tok_post_tok; try assumption. eapply adv_trans; [apply adv_next, adv_refl | exact R].
  - right. pose proof (adv_len _ _ (adv_next st0 st0 (adv_refl st0))). lia.
Qed.

Lemma scan_tok_spec : forall F rec st0, tok_post F rec st0 (scan_tok F rec st0).
Proof.
  intros F rec st0. unfold scan_tok.
  destruct ((ch st0 =? 33) || is_letter (ch st0)) eqn:I.
  { assert (N : ch st0 <> -1) by (intro E; rewrite E in I; discriminate I).
    assert (R : runs (next st0) F st0 (ident_loop F st0)).
    { rewrite ident_loop_while. pose proof (while_runs ident_char eq_refl F st0) as R. unfold ident_char at 1 in R.
      apply orb_true_iff in I. destruct I as [I|I]; rewrite I, ?orb_true_r in R; exact R. }
    destruct (ident_loop F st0) as [st1|]; [|right; exact R].
    destruct (ident_type_range (lit_between st0 st1) (ch st0)) as (T & T0).
    exact (tok_post_tok _ _ _ _ _ N T0 T R). }
  destruct (Z.eqb_spec (ch st0) (-1)) as [E|N].
  { right. exists 0. repeat split; auto using adv_refl; lia. }
  destruct (ch st0 =? 34); [apply tok_post_bind; [exact N | discriminate | lia | apply scan_string_runs]|].
  destruct (ch st0 =? 39); [apply tok_post_bind; [exact N | discriminate | lia | apply scan_char_runs]|].
  destruct (ch st0 =? 96); [apply tok_post_bind; [exact N | discriminate | lia | apply scan_raw_runs]|].
  destruct (ch st0 =? 47).
  { destruct ((ch (next st0) =? 47) || (ch (next st0) =? 42));
      [|apply tok_post_tok; [exact N | discriminate | lia | apply adv_refl]].
    pose proof (scan_comment_runs F st0 (next st0)) as R.
    destruct (scan_comment F st0 (next st0)) as [st2|]; cbn [opt_bind runs] in *.
    - left. exists st2. repeat split; [exact N|]. eapply adv_trans; [apply adv_start, adv_refl | exact R].
    - right. pose proof (adv_len _ _ (adv_next st0 st0 (adv_refl st0))). lia. }
  destruct (ch st0 =? 60).
  { destruct (ch (next st0) =? 60); [apply tok_post_bind; [exact N | discriminate | lia | apply scan_sdt_runs]|].
    destruct (ch (next st0) =? 61); (apply tok_post_tok; [exact N | discriminate | lia | auto with adv]). }
  destruct (punct_type (ch st0)) as [ty|] eqn:P.
  - apply punct_type_range in P. apply tok_post_tok; [exact N | apply P | apply P | apply adv_refl].
  - apply tok_post_tok; [exact N | discriminate | lia | auto with adv].
Qed.

Definition tok_ok (st : state) (t : ftok) (st' : state) : Prop :=
  exists st0, adv st st0 /\ tok_at st0 t st'.

(** [None] for lack of either fuel: [F] runs the inner loops, [fuel] counts the comments skipped in one call *)
Lemma scan_runs : forall F fuel st,
  match scan F fuel st with
  | Some (t, st') => tok_ok st t st'
  | None => (F <= len st)%nat \/ (fuel <= len st)%nat
  end.
Proof.
  intros F. induction fuel as [|f IH]; intro st; [right; apply Nat.le_0_l|].
  rewrite scan_unfold.
  assert (W : runs st F st (skip_ws F st)).
  { rewrite skip_ws_while. eapply runs_pre; [apply (while_runs is_blank eq_refl) | destruct (is_blank _); auto with adv | apply adv_refl]. }
  destruct (skip_ws F st) as [st0|]; cbn [opt_bind runs] in *; [|left; exact W].
  pose proof (adv_len _ _ W) as L.
  destruct (scan_tok_spec F (scan F f) st0) as [(st2 & N & A & E) | T].
  - rewrite <- E. specialize (IH st2). apply next_len_lt in N. pose proof (adv_len _ _ A) as L2.
    destruct (scan F f st2) as [[t st']|]; [|lia].
    destruct IH as (st0' & A' & T). exists st0'. split; [|exact T].
    eapply adv_trans; [exact W|]. eapply adv_trans; [apply adv_next, adv_refl|].
    eapply adv_trans; eassumption.
  - destruct (scan_tok F (scan F f) st0) as [[t st']|]; [exists st0; split; assumption | lia].
Qed.

Lemma scan_spec : forall F fuel st t st', scan F fuel st = Some (t, st') -> tok_ok st t st'.
Proof. intros F fuel st t st' H. pose proof (scan_runs F fuel st) as R. rewrite H in R. exact R. Qed.

Lemma tok_at_adv : forall st0 t st', tok_at st0 t st' -> adv st0 st'.
Proof. intros st0 t st' (ty & _ & _ & _ & A). eapply adv_trans; [apply adv_next, adv_refl | exact A]. Qed.

Lemma tok_at_lt : forall st0 t st', tok_at st0 t st' -> f_type t <> 0 -> (len st' < len st0)%nat.
Proof.
  intros st0 t st' (ty & -> & _ & Z0 & A) N. cbn [f_type mk_tok] in N.
  apply adv_len in A. assert (C : ch st0 <> -1) by tauto. apply next_len_lt in C. lia.
Qed.

Lemma scan_adv : forall F fuel st t st', scan F fuel st = Some (t, st') -> adv st st'.
Proof.
  intros F fuel st t st' H. apply scan_spec in H. destruct H as (st0 & A0 & T).
  eapply adv_trans; [exact A0 | eapply tok_at_adv; exact T].
Qed.

Lemma scan_tok_adv : forall F rec st0 t ra, scan_tok F rec st0 = Some (t, ra) ->
  (forall a t r, rec a = Some (t, r) -> adv a r) -> adv (next st0) ra.
Proof.
  intros F rec st0 t ra H Hadv. destruct (scan_tok_spec F rec st0) as [(st2 & _ & A & E) | T]; rewrite H in *.
  - eapply adv_trans; [exact A | eapply Hadv; exact E].
  - destruct T as (ty & _ & _ & _ & A). exact A.
Qed.

Lemma scan_consumes : forall F fuel st t st', scan F fuel st = Some (t, st') ->
  nonneg (s_cur st) -> (0 < len st)%nat -> (len st' < len st)%nat.
Proof.
  intros F fuel st t st' H N L. apply scan_spec in H. destruct H as (st0 & A0 & ty & _ & _ & _ & A1).
  pose proof (adv_len _ _ A0). apply adv_len in A1.
  destruct (Nat.eq_dec (len st0) 0) as [L0|L0]; [pose proof (adv_len _ _ (adv_next st0 st0 (adv_refl st0))); lia|].
  pose proof (ch_nonneg_of st0 (adv_nonneg_of _ _ A0 N)).
  pose proof (next_len_lt st0). lia.
Qed.

Definition at_src (src : list Z) (st : state) : Prop :=
  exists p, src = p ++ s_cur st /\ s_po st = Z.of_nat (length p).

Definition tok_in_src (src : list Z) (t : ftok) : Prop :=
  exists p q, src = p ++ f_lit t ++ q /\ f_off t = Z.of_nat (length p).

Definition tok_end (t : ftok) : Z := f_off t + Z.of_nat (length (f_lit t)).

Lemma at_src_adv : forall src st r, at_src src st -> adv st r -> at_src src r.
Proof.
  intros src st r (p & Hp & Pp) (q & Hq & Pq). exists (p ++ q). split.
  - rewrite Hp, Hq, app_assoc. reflexivity.
  - rewrite app_length. lia.
Qed.

Lemma lit_between_adv : forall st0 st1 p, s_cur st0 = p ++ s_cur st1 -> lit_between st0 st1 = p.
Proof.
  intros st0 st1 p H. unfold lit_between. rewrite H, app_length, Nat.add_sub. apply firstn_length_app.
Qed.

Lemma tok_end_po : forall st t st', tok_ok st t st' -> s_po st' = tok_end t.
Proof.
  intros st t st' (st0 & _ & T). destruct (tok_at_adv _ _ _ T) as (l & Hl & Pl).
  destruct T as (ty & -> & _). unfold tok_end.
  cbn [f_off f_lit mk_tok]. rewrite (lit_between_adv st0 st' l Hl). exact Pl.
Qed.

Lemma tok_ok_facts : forall src st t st', at_src src st -> tok_ok st t st' ->
  tok_in_src src t /\ s_po st <= f_off t /\ s_po st' = tok_end t /\ at_src src st' /\
  (f_type t <> 0 -> f_off t < tok_end t).
Proof.
  intros src st t st' A TO. pose proof (tok_end_po _ _ _ TO) as PE. destruct TO as (st0 & A0 & T).
  pose proof (at_src_adv _ _ _ A A0) as (p & Hp & Pp).
  destruct (tok_at_adv _ _ _ T) as (l & Hl & Pl). destruct A0 as (p0 & Hp0 & Pp0).
  pose proof (tok_at_lt _ _ _ T) as L. unfold len in L. rewrite Hl, app_length in L.
  destruct T as (ty & -> & _). unfold tok_end, tok_in_src in *. cbn [f_lit f_off mk_tok] in *.
  rewrite (lit_between_adv st0 st' l Hl) in *.
  split; [|split; [|split; [exact PE|split]]]; [| lia | | intro N; specialize (L N); lia].
  - exists p, (s_cur st'). split; [rewrite Hp, Hl; reflexivity | exact Pp].
  - exists (p ++ l). split; [rewrite Hp, Hl, app_assoc; reflexivity | rewrite app_length; lia].
Qed.

Definition tok_before (a b : ftok) : Prop := tok_end a <= f_off b /\ f_off a < f_off b.

Ltac bind_some H x E :=
  match type of H with
  | opt_bind ?o _ = Some _ =>
    destruct o as [x|] eqn:E; cbn [opt_bind] in H; [|discriminate H]
  end.

Lemma scan_all_S : forall F f st ts st', scan_all F (S f) st = Some (ts, st') ->
  exists t st1, scan F F st = Some (t, st1) /\
    ((f_type t =? 0) = true /\ ts = [t] /\ st' = st1 \/
     (f_type t =? 0) = false /\ exists ts2, scan_all F f st1 = Some (ts2, st') /\ ts = t :: ts2).
Proof.
  intros F f st ts st' H. cbn [scan_all] in H. bind_some H r S1. destruct r as [t st1].
  exists t, st1. split; [reflexivity|]. destruct (f_type t =? 0).
  - injection H as <- <-. auto.
  - bind_some H r' S2. destruct r' as [ts2 st2]. injection H as <- <-. right. eauto.
Qed.

Lemma scan_all_runs : forall src F fuel st, at_src src st ->
  match scan_all F fuel st with
  | Some (ts, st') =>
    (exists ts' e, ts = ts' ++ [e] /\ f_type e = 0 /\ Forall (fun t => f_type t <> 0) ts') /\
    Forall (tok_in_src src) ts /\ StronglySorted tok_before ts /\
    Forall (fun t => s_po st <= f_off t) ts
  | None => (F <= len st)%nat \/ (fuel <= len st)%nat
  end.
Proof.
  intros src F. induction fuel as [|f IH]; intros st A; [right; apply Nat.le_0_l|].
  cbn [scan_all]. pose proof (scan_runs F F st) as S1.
  destruct (scan F F st) as [[t st1]|]; cbn [opt_bind]; [|left; tauto].
  destruct (tok_ok_facts src st t st1 A S1) as (T1 & T2 & T3 & T4 & T5).
  destruct (Z.eqb_spec (f_type t) 0) as [Z0|Z0].
  { split; [exists [], t; auto|]. repeat constructor; assumption. }
  destruct S1 as (st0 & A0 & T). pose proof (tok_at_lt _ _ _ T Z0) as L. apply adv_len in A0.
  specialize (IH st1 T4). destruct (scan_all F f st1) as [[ts st']|]; cbn [opt_bind]; [|lia].
  destruct IH as ((ts' & e & -> & E2 & E3) & I & O & B). specialize (T5 Z0).
  split; [exists (t :: ts'), e; auto|]. repeat split.
  - constructor; assumption.
  - constructor; [exact O|]. eapply Forall_impl; [|exact B]. unfold tok_before. cbv beta. lia.
  - constructor; [exact T2|]. eapply Forall_impl; [|exact B]. cbv beta. lia.
Qed.

Lemma at_src_init : forall src, at_src src (init src).
Proof. intro src. exists []. split; reflexivity. Qed.

Lemma scan_all_init : forall src, exists ts st',
  scan_all (fuel_for src) (fuel_for src) (init src) = Some (ts, st').
Proof.
  intro src. pose proof (scan_all_runs src (fuel_for src) (fuel_for src) _ (at_src_init src)) as R.
  destruct (scan_all _ _ (init src)) as [[ts st']|]; [eauto|].
  unfold fuel_for, len, init in R. cbn [s_cur] in R. lia.
Qed.

Theorem fscan_opt_total : forall src, exists ts e,
  fscan_opt src = Some (ts, e) /\ fscan_all src = (ts, e).
Proof.
  intro src. unfold fscan_all, fscan_opt. destruct (scan_all_init src) as (ts & st' & H).
  rewrite H. eauto.
Qed.

Lemma fscan_all_inv : forall src ts e, fscan_all src = (ts, e) ->
  exists st', scan_all (fuel_for src) (fuel_for src) (init src) = Some (ts, st').
Proof.
  intros src ts e H. destruct (scan_all_init src) as (ts0 & st' & H0).
  unfold fscan_all, fscan_opt in H. rewrite H0 in H. injection H as <- _. eauto.
Qed.

Lemma fscan_all_spec : forall src ts e, fscan_all src = (ts, e) ->
  (exists ts' eof, ts = ts' ++ [eof] /\ f_type eof = 0 /\ Forall (fun t => f_type t <> 0) ts') /\
  Forall (tok_in_src src) ts /\ StronglySorted tok_before ts.
Proof.
  intros src ts e H. apply fscan_all_inv in H. destruct H as (st' & H).
  pose proof (scan_all_runs src (fuel_for src) (fuel_for src) _ (at_src_init src)) as R.
  rewrite H in R. tauto.
Qed.

Theorem fscan_all_ends_with_eof : forall src ts e, fscan_all src = (ts, e) ->
  exists ts' eof, ts = ts' ++ [eof] /\ f_type eof = 0 /\ Forall (fun t => f_type t <> 0) ts'.
Proof. intros src ts e H. apply (fscan_all_spec src ts e H). Qed.

Theorem fscan_all_lits : forall src ts e, fscan_all src = (ts, e) ->
  Forall (tok_in_src src) ts.
Proof. intros src ts e H. apply (fscan_all_spec src ts e H). Qed.

(** the same with Go's slice expression src[off : off+len(lit)] *)
Corollary tok_lit_slice : forall src ts e t, fscan_all src = (ts, e) -> In t ts ->
  0 <= f_off t /\ tok_end t <= Z.of_nat (length src) /\
  f_lit t = firstn (length (f_lit t)) (skipn (Z.to_nat (f_off t)) src).
Proof.
  intros src ts e t H I. apply fscan_all_lits in H.
  rewrite Forall_forall in H. destruct (H t I) as (p & q & E & O).
  unfold tok_end. rewrite O, E, !app_length. repeat split; try lia.
  rewrite Nat2Z.id, skipn_length_app, firstn_length_app. reflexivity.
Qed.

Theorem fscan_all_offsets : forall src ts e, fscan_all src = (ts, e) ->
  StronglySorted tok_before ts.
Proof. intros src ts e H. apply (fscan_all_spec src ts e H). Qed.

Definition strip (t : ftok) : Z * list Z := (f_type t, f_lit t).

Definition first_ch (l : list Z) : Z := fst (read l).

(** The first character of [Y] answers the three look-ahead tests of Scan as that of [X] does: the end of an
    identifier, a comment after a slash (asked only if the byte in front of the tails is a slash, [PS]), and "<<"
    or "<=" after "<". *)
Record look_alike (X Y : list Z) (PS : Prop) : Prop := {
  la_ident : ident_char (first_ch X) = false -> ident_char (first_ch Y) = false;
  la_slash : PS -> ((first_ch X =? 47) || (first_ch X =? 42)) = false ->
             ((first_ch Y =? 47) || (first_ch Y =? 42)) = false;
  la_less : (first_ch X =? 60) = false -> (first_ch X =? 61) = false ->
            (first_ch Y =? 60) = false /\ (first_ch Y =? 61) = false }.

Lemma look_alike_first : forall X Y PS, first_ch X = first_ch Y -> look_alike X Y PS.
Proof. intros X Y PS E. constructor; rewrite <- E; tauto. Qed.

(** Two runs on inputs [.. ++ X] and [.. ++ Y]: as long as the first run does not go beyond the point where [X]
    starts, the second run does the same thing.  Instantiated three times: with [X = Y = []] (positions, error
    count and fuel do not influence tokens), with tails having the same first byte, and
    with [Y = layout ++ X]. *)

Section Sim.
Variables X Y : list Z.
(* "the byte before the boundary is a slash": left abstract, the user of the section says what he knows then *)
Variable PS : Prop.

Hypothesis Hcase : (X = [] /\ Y = []) \/
                   (X <> [] /\ Y <> [] /\ hard X /\ hard Y /\ nonneg X).

Definition sim (a b : state) : Prop :=
  exists c, nonneg c /\ (forall c', c = c' ++ [47] -> PS) /\
            s_cur a = c ++ X /\ s_cur b = c ++ Y.

Lemma sim_cur : forall a b a' b', sim a b -> s_cur a' = s_cur a -> s_cur b' = s_cur b -> sim a' b'.
Proof.
  intros a b a' b' (c & N & S & Ea & Eb) Ha Hb. exists c. rewrite Ha, Hb. auto.
Qed.

Lemma sim_add_err_l : forall a b, sim a b -> sim (add_err a) b.
Proof. intros a b H. eapply sim_cur; [exact H | reflexivity | reflexivity]. Qed.
Lemma sim_add_err : forall a b, sim a b -> sim (add_err a) (add_err b).
Proof. intros a b H. eapply sim_cur; [exact H | reflexivity | reflexivity]. Qed.

Lemma sim_len : forall a b, sim a b -> (length X <= len a)%nat.
Proof. intros a b (c & _ & _ & Ea & _). unfold len. rewrite Ea, app_length. lia. Qed.

Lemma sim_cases : forall a b, sim a b ->
  (ch a = ch b /\ sim (next a) (next b)) \/
  (s_cur a = X /\ s_cur b = Y /\ X <> [] /\ 0 <= ch a).
Proof.
  intros a b (c & N & S & Ea & Eb). destruct c as [|b0 c].
  - cbn [app] in Ea, Eb. destruct Hcase as [(EX & EY) | (NX & NY & _ & _ & NNX)].
    + left. unfold ch. rewrite Ea, Eb, EX, EY. split; [reflexivity|].
      exists []. rewrite !next_cur, Ea, Eb, EX, EY.
      repeat split; [constructor|]. intros [|? ?]; discriminate.
    + right. repeat split; auto. apply ch_nonneg_of; unfold len; rewrite Ea; [exact NNX|].
      destruct X; [contradiction | cbn; lia].
  - left. assert (HXY : hard X /\ hard Y).
    { destruct Hcase as [(-> & ->) | (_ & _ & HX & HY & _)]; [split; exact I | split; assumption]. }
    destruct HXY as (HX & HY).
    set (w := snd (read (b0 :: c))).
    unfold ch. rewrite Ea, Eb. cbn [app]. rewrite (read_hard b0 c X HX), (read_hard b0 c Y HY). split; [reflexivity|].
    exists (skipn w (b0 :: c)). repeat split.
    + apply nonneg_skipn. exact N.
    + intros c' Hc'. apply (S (firstn w (b0 :: c) ++ c')).
      rewrite <- app_assoc, <- Hc', firstn_skipn. reflexivity.
    + exact (next_skipn a b0 c X Ea HX).
    + exact (next_skipn b b0 c Y Eb HY).
Qed.

(** The first run has not read into [X] / has stopped short of it.  A loop that decides by LOOKING at a character it
    may not consume (skip_ws, the look-ahead of the comment loops, the digits of an escape) must end [before] the
    boundary, since the second run sees another character there; a loop that consumes every character it tests
    (string, char, raw string, SDT) may end exactly at it ([not_past]); so may the identifier loop, given that the
    first characters of [X] and [Y] both end an identifier (the last premise of [while_sim]). *)
Definition not_past (ra : state) : Prop := (length X <= len ra)%nat.
Definition before (ra : state) : Prop := X = [] \/ (length X < len ra)%nat.

Lemma past_boundary : forall a ra, s_cur a = X -> 0 <= ch a -> adv (start a) ra -> not_past ra -> False.
Proof.
  intros a ra Ea P A B. apply adv_start_lt in A; [|exact P]. unfold not_past, len in *. rewrite Ea in A. lia.
Qed.

Lemma sim_step : forall a b ra, sim a b -> adv (start a) ra -> not_past ra ->
  ch a = ch b /\ sim (next a) (next b).
Proof.
  intros a b ra S A B. destruct (sim_cases a b S) as [R | (Ea & _ & _ & P)]; [exact R|].
  destruct (past_boundary a ra Ea P A B).
Qed.

Lemma sim_step_before : forall a b ra, sim a b -> adv a ra -> before ra ->
  ch a = ch b /\ sim (next a) (next b).
Proof.
  intros a b ra S A [B|B]; destruct (sim_cases a b S) as [R | (Ea & _ & NX & _)]; try exact R; [contradiction|].
  exfalso. apply adv_len in A. unfold len in *. rewrite Ea in A. lia.
Qed.

Lemma before_of : forall e ra, (len ra <= len e)%nat -> ((0 < len e)%nat -> (len ra < len e)%nat) ->
  not_past ra -> before e.
Proof.
  intros e ra L P N. unfold before, not_past in *. destruct X; [left; reflexivity | right].
  cbn [length] in *. lia.
Qed.

Lemma sim_nonneg : forall a b, sim a b -> nonneg (s_cur a).
Proof.
  intros a b (c & N & _ & Ea & _). rewrite Ea. apply Forall_app. split; [exact N|].
  destruct Hcase as [(-> & _) | (_ & _ & _ & _ & H)]; [constructor | exact H].
Qed.

Lemma ch_at : forall a b, s_cur a = X -> s_cur b = Y -> ch a = first_ch X /\ ch b = first_ch Y.
Proof. intros a b Ea Eb. unfold ch, first_ch. rewrite Ea, Eb. split; reflexivity. Qed.

(** The loops.  The second run may have more fuel.  All proofs have one shape: induction on the fuel of the first
    run; the result lies beyond the state at hand (the loop's [_runs] lemma), so that state is not at the boundary and both runs read
    the same character there ([sim_step], [sim_step_before]); then the two bodies take the same branch. *)

Lemma while_sim : forall p, p (-1) = false -> forall fuel fuel' a b ra, (fuel <= fuel')%nat -> sim a b ->
  while_ch p fuel a = Some ra -> not_past ra ->
  (X <> [] -> s_cur ra = X -> p (first_ch X) = false -> p (first_ch Y) = false) ->
  exists rb, while_ch p fuel' b = Some rb /\ sim ra rb.
Proof.
  intros p Hp. induction fuel as [|f IH]; intros [|f'] a b ra Hf S H B HY; [discriminate | discriminate | lia |].
  cbn [while_ch] in H |- *.
  destruct (sim_cases a b S) as [(E & SN) | (Ea & Eb & NX & P)].
  - rewrite <- E. destruct (p (ch a)); [apply (IH f' (next a)); [exact (le_S_n _ _ Hf) | assumption..]|].
    injection H as <-. eauto.
  - destruct (ch_at _ _ Ea Eb) as (CA & CB).
    rewrite CB. rewrite CA in H. destruct (p (first_ch X)) eqn:C.
    + exfalso. apply (while_adv p Hp), adv_len in H. pose proof (next_len_lt a) as L.
      unfold not_past, len in *. rewrite Ea in *. lia.
    + injection H as <-. rewrite (HY NX Ea eq_refl). eauto.
Qed.

Lemma skip_ws_sim : forall fuel fuel' a b ra, (fuel <= fuel')%nat -> sim a b ->
  skip_ws fuel a = Some ra -> before ra ->
  exists rb, skip_ws fuel' b = Some rb /\ sim ra rb.
Proof.
  intros fuel fuel' a b ra Hf S H B. apply (while_sim is_blank eq_refl fuel fuel' a b ra Hf S H).
  - unfold not_past. destruct B as [->|B]; cbn [length]; lia.
  - intros NX E. destruct B as [B|B]; [contradiction|]. unfold len in B. rewrite E in B. lia.
Qed.

Lemma esc_digits_sim : forall i base x a b, sim a b -> before (fst (esc_digits i base x a)) ->
  sim (fst (esc_digits i base x a)) (fst (esc_digits i base x b)) /\
  snd (esc_digits i base x a) = snd (esc_digits i base x b).
Proof.
  induction i as [|i IH]; intros base x a b S B; [split; [exact S | reflexivity]|].
  destruct (sim_step_before a b _ S (adv_esc_digits a _ _ _ a (adv_refl a)) B) as (E & SN).
  cbn [esc_digits] in *. rewrite <- E.
  destruct (fdigit_val (ch a) >? base); cbn [fst snd] in *.
  - split; [apply sim_add_err; exact S | reflexivity].
  - apply IH; assumption.
Qed.

Lemma esc_number_sim : forall i base mx a b, sim a b -> before (esc_number i base mx a) ->
  sim (esc_number i base mx a) (esc_number i base mx b).
Proof.
  intros i base mx a b S B. unfold esc_number in *.
  assert (B' : before (fst (esc_digits i base 0 a))).
  { destruct (esc_digits i base 0 a) as [st' [x|]]; cbn [fst]; [|exact B].
    destruct ((x >? mx) || _); exact B. }
  destruct (esc_digits_sim i base 0 a b S B') as (S' & E').
  destruct (esc_digits i base 0 a) as [sa oa], (esc_digits i base 0 b) as [sb ob].
  cbn [fst snd] in *. subst ob. destruct oa as [x|]; [|exact S'].
  destruct ((x >? mx) || _); [apply sim_add_err|]; exact S'.
Qed.

Lemma scan_escape_sim : forall q a b, sim a b -> before (scan_escape q a) ->
  sim (scan_escape q a) (scan_escape q b).
Proof.
  intros q a b S B.
  destruct (sim_step_before a b _ S (adv_scan_escape a q a (adv_next a a (adv_refl a))) B) as (E & SN).
  unfold scan_escape in *. rewrite <- E.
  destruct (_ || (ch a =? q)); [exact SN|].
  destruct ((48 <=? ch a) && (ch a <=? 55)); [apply esc_number_sim; assumption|].
  destruct (ch a =? 120); [apply esc_number_sim; assumption|].
  destruct (ch a =? 117); [apply esc_number_sim; assumption|].
  destruct (ch a =? 85); [apply esc_number_sim; assumption | apply sim_add_err, SN].
Qed.

Lemma line_directive_sim : forall c0 c0' col0 col0' a b, sim a b ->
  sim (line_directive c0 col0 a) (line_directive c0' col0' b).
Proof. intros c0 c0' col0 col0' a b S. eapply sim_cur; [exact S | |]; apply line_directive_cur_po. Qed.

Lemma line_comment_sim : forall fuel fuel' c0 c0' col0 col0' a b ra, (fuel <= fuel')%nat -> sim a b ->
  line_comment fuel c0 col0 a = Some ra -> before ra ->
  exists rb, line_comment fuel' c0' col0' b = Some rb /\ sim ra rb.
Proof.
  induction fuel as [|f IH]; intros [|f'] c0 c0' col0 col0' a b ra Hf Sm H B; [discriminate | discriminate | lia |].
  pose proof (runs_adv (line_comment_runs (S f) c0 col0 a) H) as A.
  destruct (sim_step_before a b ra Sm (adv_of_adv_start _ _ A) B) as (E & SN).
  cbn [line_comment] in H |- *. rewrite <- E.
  destruct (Z.geb_spec (ch a) 0) as [P|P]; [|injection H as <-; eauto using sim_add_err].
  rewrite (start_next a P) in A. destruct (sim_step_before _ _ ra SN A B) as (E1 & _). rewrite <- E1.
  destruct (ch (next a) =? 10); [injection H as <-; eauto using line_directive_sim|].
  apply (IH f' c0 c0' col0 col0' (next a)); [exact (le_S_n _ _ Hf) | assumption..].
Qed.

Lemma block_comment_sim : forall fuel fuel' a b ra, (fuel <= fuel')%nat -> sim a b ->
  block_comment fuel a = Some ra -> before ra ->
  exists rb, block_comment fuel' b = Some rb /\ sim ra rb.
Proof.
  induction fuel as [|f IH]; intros [|f'] a b ra Hf Sm H B; [discriminate | discriminate | lia |].
  pose proof (runs_adv (block_comment_runs (S f) a) H) as A.
  destruct (sim_step_before a b ra Sm (adv_of_adv_start _ _ A) B) as (E & SN).
  cbn [block_comment] in H |- *. rewrite <- E.
  destruct (Z.geb_spec (ch a) 0) as [P|P]; [|injection H as <-; eauto using sim_add_err].
  rewrite (start_next a P) in A. destruct (sim_step_before _ _ ra SN A B) as (E1 & SN1). rewrite <- E1.
  destruct ((ch a =? 42) && (ch (next a) =? 47)); [injection H as <-; eauto|].
  apply (IH f' (next a)); [exact (le_S_n _ _ Hf) | assumption..].
Qed.

Lemma scan_comment_sim : forall F F' a0 b0 a b ra, (F <= F')%nat -> sim a b ->
  scan_comment F a0 a = Some ra -> before ra ->
  exists rb, scan_comment F' b0 b = Some rb /\ sim ra rb.
Proof.
  intros F F' a0 b0 a b ra HF S H B.
  pose proof (adv_of_adv_start _ _ (runs_adv (scan_comment_runs F a0 a) H)) as A.
  destruct (sim_step_before a b ra S A B) as (E & SN).
  unfold scan_comment in *. rewrite <- E. destruct (ch a =? 47).
  - eapply line_comment_sim; eassumption.
  - apply (block_comment_sim F F' (expect 42 a) (expect 42 b) ra HF); [|exact H | exact B].
    pose proof (adv_of_adv_start _ _ (runs_adv (block_comment_runs F _) H)) as A'.
    unfold expect in *. rewrite <- E. destruct (ch a =? 42); [exact SN|].
    apply (sim_step_before _ _ ra (sim_add_err _ _ S)); [|exact B].
    eapply adv_trans; [apply adv_next, adv_refl | exact A'].
Qed.

Lemma sim_next : forall a b ra, sim a b -> adv (next a) ra -> not_past ra -> sim (next a) (next b).
Proof. intros a b ra Sm A B. exact (proj2 (sim_step a b ra Sm (adv_start_of_next _ _ A) B)). Qed.

(** after an escape the literal's loop reads on *)
Lemma before_escape : forall q a b ra, sim a b -> adv (next (scan_escape q a)) ra -> not_past ra ->
  before (scan_escape q a).
Proof.
  intros q a b ra Sm A B. apply (before_of _ ra); [apply adv_len, adv_of_adv_start, adv_start_of_next, A | | exact B].
  intro L. apply adv_start_lt; [apply adv_start_of_next, A|]. apply ch_nonneg_of; [|exact L].
  eapply adv_nonneg_of; [|eapply sim_nonneg; exact Sm]. auto with adv.
Qed.

Lemma scan_string_sim : forall fuel fuel' a b ra, (fuel <= fuel')%nat -> sim a b ->
  scan_string fuel a = Some ra -> not_past ra ->
  exists rb, scan_string fuel' b = Some rb /\ sim ra rb.
Proof.
  induction fuel as [|f IH]; intros [|f'] a b ra Hf Sm H B; [discriminate | discriminate | lia |].
  pose proof (runs_adv (scan_string_runs (S f) a) H) as A.
  destruct (sim_step a b ra Sm (adv_start_of_next _ _ A) B) as (E & SN).
  cbn [scan_string] in H |- *. rewrite <- E.
  destruct (ch a =? 34); [injection H as <-; eauto|].
  destruct ((ch a =? 10) || (ch a <? 0)).
  { injection H as <-. eauto using sim_next, sim_add_err, adv_refl. }
  destruct (ch a =? 92); [|apply (IH f' _ _ _ (le_S_n _ _ Hf) SN H B)].
  apply (IH f' (scan_escape 34 (next a)) _ _ (le_S_n _ _ Hf)); [|exact H | exact B].
  apply scan_escape_sim; [exact SN|]. apply (before_escape _ _ _ ra SN); [|exact B].
  exact (runs_adv (scan_string_runs f _) H).
Qed.

Lemma char_finish_sim : forall n a b, sim a b -> sim (char_finish n a) (char_finish n b).
Proof.
  intros n a b Sm. unfold char_finish. destruct (n =? 1); [exact Sm | apply sim_add_err; exact Sm].
Qed.

Lemma scan_char_sim : forall fuel fuel' n a b ra, (fuel <= fuel')%nat -> sim a b ->
  scan_char fuel n a = Some ra -> not_past ra ->
  exists rb, scan_char fuel' n b = Some rb /\ sim ra rb.
Proof.
  induction fuel as [|f IH]; intros [|f'] n a b ra Hf Sm H B; [discriminate | discriminate | lia |].
  pose proof (runs_adv (scan_char_runs (S f) n a) H) as A.
  destruct (sim_step a b ra Sm (adv_start_of_next _ _ A) B) as (E & SN).
  cbn [scan_char] in H |- *. rewrite <- E.
  destruct (ch a =? 39); [injection H as <-; eauto using char_finish_sim|].
  destruct ((ch a =? 10) || (ch a <? 0)).
  { injection H as <-. eexists. split; [reflexivity|]. apply char_finish_sim.
    exact (sim_next _ _ _ (sim_add_err _ _ SN) (adv_refl _) B). }
  destruct (ch a =? 92); [|apply (IH f' _ _ _ _ (le_S_n _ _ Hf) SN H B)].
  apply (IH f' _ (scan_escape 39 (next a)) _ _ (le_S_n _ _ Hf)); [|exact H | exact B].
  apply scan_escape_sim; [exact SN|]. apply (before_escape _ _ _ ra SN); [|exact B].
  exact (runs_adv (scan_char_runs f _ _) H).
Qed.

Lemma scan_raw_sim : forall fuel fuel' a b ra, (fuel <= fuel')%nat -> sim a b ->
  scan_raw fuel a = Some ra -> not_past ra ->
  exists rb, scan_raw fuel' b = Some rb /\ sim ra rb.
Proof.
  induction fuel as [|f IH]; intros [|f'] a b ra Hf Sm H B; [discriminate | discriminate | lia |].
  pose proof (runs_adv (scan_raw_runs (S f) a) H) as A.
  destruct (sim_step a b ra Sm (adv_start_of_next _ _ A) B) as (E & SN).
  cbn [scan_raw] in H |- *. rewrite <- E.
  destruct (ch a =? 96); [injection H as <-; eauto|].
  destruct (ch a <? 0); [injection H as <-; eauto using sim_next, sim_add_err, adv_refl|].
  apply (IH f' _ _ _ (le_S_n _ _ Hf) SN H B).
Qed.

Lemma sdt_loop_sim : forall fuel fuel' a b ra, (fuel <= fuel')%nat -> sim a b ->
  sdt_loop fuel a = Some ra -> not_past ra ->
  exists rb, sdt_loop fuel' b = Some rb /\ sim ra rb.
Proof.
  induction fuel as [|f IH]; intros [|f'] a b ra Hf Sm H B; [discriminate | discriminate | lia |].
  pose proof (runs_adv (sdt_loop_runs (S f) a) H) as A.
  destruct (sim_step a b ra Sm (adv_start_of_next _ _ A) B) as (E & SN).
  cbn [sdt_loop] in H |- *. rewrite <- E.
  destruct (ch a <? 0).
  { injection H as <-. eauto using sim_next, sim_add_err_l, sim_add_err, adv_refl. }
  destruct (ch a =? 62); [|apply (IH f' _ _ _ (le_S_n _ _ Hf) SN H B)].
  assert (A1 : adv (next (next a)) ra).
  { destruct (ch (next a) =? 62); [injection H as <-; apply adv_refl|].
    apply adv_of_adv_start, adv_start_of_next. exact (runs_adv (sdt_loop_runs f _) H). }
  destruct (sim_step _ _ ra SN (adv_start_of_next _ _ A1) B) as (E1 & SN1). rewrite <- E1.
  destruct (ch (next a) =? 62); [injection H as <-; eauto|].
  apply (IH f' _ _ _ (le_S_n _ _ Hf) SN1 H B).
Qed.

Lemma scan_sdt_sim : forall F F' a b ra, (F <= F')%nat -> sim a b ->
  scan_sdt F a = Some ra -> not_past ra ->
  exists rb, scan_sdt F' b = Some rb /\ sim ra rb.
Proof.
  intros F F' a b ra HF Sm H B. unfold scan_sdt in *. apply (sdt_loop_sim F F' (next a) (next b) ra HF); [|exact H | exact B].
  apply (sim_next _ _ ra Sm); [|exact B].
  eapply adv_trans; [apply adv_next, adv_refl | exact (runs_adv (sdt_loop_runs F _) H)].
Qed.

Lemma lit_between_sim : forall a0 b0 ra rb, sim a0 b0 -> sim ra rb ->
  lit_between a0 ra = lit_between b0 rb.
Proof.
  intros a0 b0 ra rb (c0 & _ & _ & Ea0 & Eb0) (c1 & _ & _ & Ea1 & Eb1). unfold lit_between.
  assert (K : forall T : list Z, firstn (length (c0 ++ T) - length (c1 ++ T)) (c0 ++ T) =
                                 firstn (length c0 - length c1) c0).
  { intro T. rewrite !app_length, (Nat.add_comm (length c1)), Nat.sub_add_distr, Nat.add_sub, firstn_app.
    rewrite (proj2 (Nat.sub_0_le _ _) (Nat.le_sub_l _ _)). apply app_nil_r. }
  rewrite Ea0, Ea1, Eb0, Eb1, !K. reflexivity.
Qed.

Definition sim_res (ta : ftok) (ra : state) (o : option (ftok * state)) : Prop :=
  exists tb rb, o = Some (tb, rb) /\ sim ra rb /\ strip ta = strip tb.

Lemma sim_res_tok : forall ty a0 b0 ra rb, sim a0 b0 -> sim ra rb ->
  sim_res (mk_tok ty a0 ra) ra (Some (mk_tok ty b0 rb, rb)).
Proof.
  intros ty a0 b0 ra rb S0 Sr. exists (mk_tok ty b0 rb), rb. split; [reflexivity|]. split; [exact Sr|].
  unfold strip. cbn [f_type f_lit mk_tok]. rewrite (lit_between_sim a0 b0 ra rb S0 Sr). reflexivity.
Qed.

Lemma sim_res_bind : forall ty a0 b0 oa ob ta ra, sim a0 b0 -> not_past ra ->
  (forall st2, oa = Some st2 -> not_past st2 -> exists rb, ob = Some rb /\ sim st2 rb) ->
  (do st2 <- oa; Some (mk_tok ty a0 st2, st2)) = Some (ta, ra) ->
  sim_res ta ra (do st2 <- ob; Some (mk_tok ty b0 st2, st2)).
Proof.
  intros ty a0 b0 oa ob ta ra Sm B Hs Ha. bind_some Ha st2 S2. injection Ha as <- ->.
  destruct (Hs ra eq_refl B) as (rb & -> & Srb). apply sim_res_tok; assumption.
Qed.
Arguments sim_res_bind ty {a0 b0 oa ob ta ra}.

Lemma slash_at_boundary : forall a b, sim a b -> ch a = 47 -> s_cur (next a) = X -> PS.
Proof.
  intros a b (c & _ & Sc & Ea & _) C47 En. apply (Sc []).
  destruct (ch_ascii_inv a 47 C47 ltac:(lia)) as (t & Et).
  rewrite <- (next_ascii a 47 t Et), En in Et by reflexivity. change (47 :: X) with ([47] ++ X) in Et.
  rewrite Et in Ea. apply app_inv_tail in Ea. symmetry. exact Ea.
Qed.

Hypothesis Hlook : look_alike X Y PS.

(** [reca], [recb] stand for Scan's call of itself after a comment: related states give related results, a result lies
    further along, and a call on a nonempty rest consumes something.  The branches closed by [exfalso] are those in
    which the first run would read beyond the boundary. *)
Lemma scan_tok_sim : forall F F' reca recb a0 b0 ta ra,
  (F <= F')%nat -> sim a0 b0 ->
  scan_tok F reca a0 = Some (ta, ra) -> not_past ra ->
  (forall a b t r, sim a b -> reca a = Some (t, r) -> not_past r -> sim_res t r (recb b)) ->
  (forall a t r, reca a = Some (t, r) -> adv a r) ->
  (forall a t r, reca a = Some (t, r) -> nonneg (s_cur a) -> (0 < len a)%nat -> (len r < len a)%nat) ->
  sim_res ta ra (scan_tok F' recb b0).
Proof.
  intros F F' reca recb a0 b0 ta ra HF Sm H B Hrec Hadv Hcons.
  pose proof (scan_tok_adv _ _ _ _ _ H Hadv) as A.
  destruct (sim_step a0 b0 ra Sm (adv_start_of_next _ _ A) B) as (E & SN).
  unfold scan_tok in *. rewrite <- E.
  destruct ((ch a0 =? 33) || is_letter (ch a0)).
  { bind_some H st1 L. injection H as <- ->.
    destruct (while_sim ident_char eq_refl F F' a0 b0 ra HF Sm L B (fun _ _ => la_ident _ _ _ Hlook)) as (rb & Hrb & Srb).
    change (while_ch ident_char) with ident_loop in Hrb. rewrite Hrb. cbn [opt_bind].
    rewrite <- (lit_between_sim a0 b0 ra rb Sm Srb). apply sim_res_tok; assumption. }
  destruct (ch a0 =? -1); [injection H as <- <-; apply sim_res_tok; assumption|].
  destruct (ch a0 =? 34); [exact (sim_res_bind 21 Sm B (fun st2 => scan_string_sim F F' _ _ st2 HF SN) H)|].
  destruct (ch a0 =? 39); [exact (sim_res_bind 9 Sm B (fun st2 => scan_char_sim F F' 0 _ _ st2 HF SN) H)|].
  destruct (ch a0 =? 96); [exact (sim_res_bind 21 Sm B (fun st2 => scan_raw_sim F F' _ _ st2 HF SN) H)|].
  destruct (Z.eqb_spec (ch a0) 47) as [C47|_].
  { destruct (sim_cases _ _ SN) as [(E1 & SN1) | (Ea1 & Eb1 & NX & P1)].
    - rewrite <- E1. destruct ((ch (next a0) =? 47) || (ch (next a0) =? 42));
        [|injection H as <- <-; apply sim_res_tok; assumption].
      bind_some H st2 S2.
      pose proof (adv_of_adv_start _ _ (runs_adv (scan_comment_runs F a0 (next a0)) S2)) as A2.
      assert (B2 : before st2).
      { apply (before_of st2 ra); [apply adv_len, (Hadv _ _ _ H) | | exact B].
        apply (Hcons _ _ _ H). eapply adv_nonneg_of; [exact A2 | eapply sim_nonneg; exact SN]. }
      destruct (scan_comment_sim F F' a0 b0 _ _ st2 HF SN S2 B2) as (st2b & Hst2b & Sst2).
      rewrite Hst2b. exact (Hrec _ _ _ _ Sst2 H B).
    - (* the slash is the last byte before X *)
      pose proof (slash_at_boundary a0 b0 Sm C47 Ea1) as HPS.
      destruct (ch_at _ _ Ea1 Eb1) as (CX & CY). rewrite CY. rewrite CX in H.
      destruct ((first_ch X =? 47) || (first_ch X =? 42)) eqn:T.
      + exfalso. bind_some H st2 S2. apply (past_boundary (next a0) ra Ea1 P1); [|exact B].
        exact (adv_trans _ _ _ (runs_adv (scan_comment_runs F a0 (next a0)) S2) (Hadv _ _ _ H)).
      + rewrite (la_slash _ _ _ Hlook HPS T). injection H as <- <-. apply sim_res_tok; assumption. }
  destruct (ch a0 =? 60).
  { destruct (sim_cases _ _ SN) as [(E1 & SN1) | (Ea1 & Eb1 & NX & P1)].
    - rewrite <- E1. destruct (ch (next a0) =? 60).
      + exact (sim_res_bind 18 Sm B (fun st2 => scan_sdt_sim F F' _ _ st2 HF SN) H).
      + destruct (ch (next a0) =? 61); injection H as <- <-; apply sim_res_tok;
          eauto using sim_next, adv_refl.
    - destruct (ch_at _ _ Ea1 Eb1) as (CX & CY). rewrite CY. rewrite CX in H.
      destruct (first_ch X =? 60) eqn:T1.
      { exfalso. bind_some H st2 S2. injection H as <- ->.
        exact (past_boundary _ ra Ea1 P1 (adv_start_of_next _ _ (runs_adv (scan_sdt_runs F _) S2)) B). }
      destruct (first_ch X =? 61) eqn:T2.
      { exfalso. injection H as <- <-. exact (past_boundary _ _ Ea1 P1 (adv_start_of_next _ _ (adv_refl _)) B). }
      destruct (la_less _ _ _ Hlook T1 T2) as (U1 & U2). rewrite U1, U2.
      injection H as <- <-. apply sim_res_tok; assumption. }
  destruct (punct_type (ch a0)); injection H as <- <-; apply sim_res_tok;
    auto using sim_add_err.
Qed.

Lemma scan_sim : forall F fuel a b ta ra, sim a b ->
  scan F fuel a = Some (ta, ra) -> not_past ra ->
  forall F' fuel', (F <= F')%nat -> (fuel <= fuel')%nat -> sim_res ta ra (scan F' fuel' b).
Proof.
  intros F. induction fuel as [|f IH]; intros a b ta ra Sab H B F' [|f'] HF Hf; [discriminate | discriminate | lia |].
  rewrite scan_unfold in H |- *. bind_some H st0 W.
  assert (N0 : nonneg (s_cur st0)).
  { eapply adv_nonneg_of; [exact (while_adv is_blank eq_refl _ _ _ W) | eapply sim_nonneg; exact Sab]. }
  assert (Hadv : forall a t r, scan F f a = Some (t, r) -> adv a r) by (intros; eapply scan_adv; eassumption).
  pose proof (scan_tok_adv _ _ _ _ _ H Hadv) as A.
  assert (B0 : before st0).
  { apply (before_of st0 ra); [apply adv_len, adv_of_adv_start, adv_start_of_next, A | | exact B].
    intro L. apply adv_start_lt; [apply adv_start_of_next, A | apply ch_nonneg_of; assumption]. }
  destruct (skip_ws_sim F F' a b st0 HF Sab W B0) as (st0b & Hst0b & Sst0).
  rewrite Hst0b. cbn [opt_bind].
  eapply scan_tok_sim; [exact HF | exact Sst0 | exact H | exact B | | exact Hadv | ].
  - intros a1 b1 t r S1 H1 B1. eapply IH; [exact S1 | exact H1 | exact B1 | exact HF | lia].
  - intros a1 t r H1. eapply scan_consumes; exact H1.
Qed.

End Sim.

(** One Scan call as a function of the remaining input. *)
Definition scan1 (cur : list Z) : option ((Z * list Z) * list Z) :=
  match scan (fuel_for cur) (fuel_for cur) (init cur) with
  | Some (t, st') => Some (strip t, s_cur st')
  | None => None
  end.

Definition toks (src : list Z) : list (Z * list Z) := map strip (fst (fscan_all src)).

Lemma scan_indep : forall F fuel a b ta ra,
  nonneg (s_cur a) -> s_cur a = s_cur b ->
  scan F fuel a = Some (ta, ra) ->
  forall F' fuel', (F <= F')%nat -> (fuel <= fuel')%nat ->
  exists tb rb, scan F' fuel' b = Some (tb, rb) /\ strip ta = strip tb /\ s_cur ra = s_cur rb.
Proof.
  intros F fuel a b ta ra N E H F' fuel' HF Hf.
  assert (S : sim [] [] True a b).
  { exists (s_cur a). rewrite <- E, !app_nil_r. auto. }
  destruct (scan_sim [] [] True (or_introl (conj eq_refl eq_refl)) (look_alike_first _ _ _ eq_refl)
              F fuel a b ta ra S H) with (F' := F') (fuel' := fuel')
    as (tb & rb & Hb & (c & _ & _ & Ea & Eb) & T); try assumption.
  - unfold not_past. cbn [length]. lia.
  - exists tb, rb. rewrite !app_nil_r in *. split; [exact Hb|]. split; [exact T | congruence].
Qed.

Lemma scan_agree : forall F fuel a ta ra F' fuel' b tb rb,
  nonneg (s_cur a) -> s_cur a = s_cur b ->
  scan F fuel a = Some (ta, ra) -> scan F' fuel' b = Some (tb, rb) ->
  strip ta = strip tb /\ s_cur ra = s_cur rb.
Proof.
  intros F fuel a ta ra F' fuel' b tb rb N E Ha Hb.
  destruct (scan_indep F fuel a b ta ra N E Ha (Nat.max F F') (Nat.max fuel fuel'))
    as (t1 & r1 & H1 & T1 & R1); try lia.
  rewrite E in N.
  destruct (scan_indep F' fuel' b b tb rb N eq_refl Hb (Nat.max F F') (Nat.max fuel fuel'))
    as (t2 & r2 & H2 & T2 & R2); try lia.
  rewrite H1 in H2. injection H2 as <- <-. split; congruence.
Qed.

Lemma scan_init : forall cur, exists t st',
  scan (fuel_for cur) (fuel_for cur) (init cur) = Some (t, st').
Proof.
  intro cur. pose proof (scan_runs (fuel_for cur) (fuel_for cur) (init cur)) as R.
  destruct (scan _ _ (init cur)) as [[t st']|]; [eauto|].
  unfold fuel_for, len, init in R. cbn [s_cur] in R. lia.
Qed.

Lemma scan_scan1 : forall F fuel st t st', nonneg (s_cur st) ->
  scan F fuel st = Some (t, st') -> scan1 (s_cur st) = Some (strip t, s_cur st').
Proof.
  intros F fuel st t st' N H. unfold scan1. destruct (scan_init (s_cur st)) as (t0 & st0 & H0). rewrite H0.
  destruct (scan_agree _ _ _ _ _ _ _ (init (s_cur st)) _ _ N eq_refl H H0) as (-> & ->). reflexivity.
Qed.

Lemma scan1_total : forall cur, exists tk cur', scan1 cur = Some (tk, cur').
Proof.
  intro cur. unfold scan1. destruct (scan_init cur) as (t0 & st0 & H0). rewrite H0. eauto.
Qed.

Lemma scan1_suffix : forall cur tk cur', scan1 cur = Some (tk, cur') -> exists p, cur = p ++ cur'.
Proof.
  intros cur tk cur' H. unfold scan1 in H.
  destruct (scan _ _ (init cur)) as [[t st']|] eqn:E; [|discriminate]. injection H as <- <-.
  apply scan_adv in E. destruct E as (p & Hp & _). exists p. exact Hp.
Qed.

Lemma scan1_consumes : forall cur ty lit cur', nonneg cur -> scan1 cur = Some ((ty, lit), cur') ->
  cur <> [] -> (length cur' < length cur)%nat.
Proof.
  intros cur ty lit cur' N H NE. unfold scan1 in H.
  destruct (scan _ _ (init cur)) as [[t st']|] eqn:E; [|discriminate]. injection H as _ _ <-.
  apply scan_consumes in E; [exact E | exact N |]. unfold len, init. cbn [s_cur].
  destruct cur; [contradiction | cbn; lia].
Qed.

Lemma scan_nonneg : forall F fuel st t st', scan F fuel st = Some (t, st') ->
  nonneg (s_cur st) -> nonneg (s_cur st').
Proof. intros F fuel st t st' H. eapply adv_nonneg_of, scan_adv, H. Qed.

Lemma scan_all_agree : forall F fuel a ts ra F' fuel' b ts' rb,
  nonneg (s_cur a) -> s_cur a = s_cur b ->
  scan_all F fuel a = Some (ts, ra) -> scan_all F' fuel' b = Some (ts', rb) ->
  map strip ts = map strip ts'.
Proof.
  intros F. induction fuel as [|f IH]; intros a ts ra F' [|f'] b ts' rb N E Ha Hb; try discriminate.
  destruct (scan_all_S _ _ _ _ _ Ha) as (t & st1 & S1 & Ca). destruct (scan_all_S _ _ _ _ _ Hb) as (t' & st1' & S1' & Cb).
  destruct (scan_agree _ _ _ _ _ _ _ _ _ _ N E S1 S1') as (T & R).
  replace (f_type t') with (f_type t) in Cb by exact (f_equal fst T).
  destruct Ca as [(Z0 & -> & _) | (Z0 & ts2 & S2 & ->)], Cb as [(Z0' & -> & _) | (Z0' & ts2' & S2' & ->)];
    try congruence; cbn [map]; rewrite T; [reflexivity | f_equal].
  exact (IH _ _ _ _ _ _ _ _ (scan_nonneg _ _ _ _ _ S1 N) R S2 S2').
Qed.

Lemma scan_all_toks : forall F fuel st ts st', nonneg (s_cur st) ->
  scan_all F fuel st = Some (ts, st') -> map strip ts = toks (s_cur st).
Proof.
  intros F fuel st ts st' N H. unfold toks.
  destruct (fscan_opt_total (s_cur st)) as (ts0 & e & _ & H0). rewrite H0.
  apply fscan_all_inv in H0. destruct H0 as (st0 & H0).
  exact (scan_all_agree _ _ _ _ _ _ _ (init (s_cur st)) _ _ N eq_refl H H0).
Qed.

Lemma toks_step : forall cur ty lit cur', nonneg cur ->
  scan1 cur = Some ((ty, lit), cur') ->
  toks cur = (ty, lit) :: (if ty =? 0 then [] else toks cur').
Proof.
  intros cur ty lit cur' N H. unfold toks at 1.
  destruct (fscan_opt_total cur) as (ts & e & _ & HA). rewrite HA. cbn [fst].
  apply fscan_all_inv in HA. destruct HA as (stE & HA).
  unfold scan1 in H. unfold fuel_for in HA at 2.
  destruct (scan_all_S _ _ _ _ _ HA) as (t & st1 & S1 & C). rewrite S1 in H.
  injection H as <- <- <-. change (f_type t, f_lit t) with (strip t).
  destruct C as [(-> & -> & _) | (-> & ts2 & S2 & ->)]; [reflexivity|]. cbn [map]. f_equal.
  exact (scan_all_toks _ _ _ _ _ (scan_nonneg _ _ _ _ _ S1 N) S2).
Qed.

Lemma blank_cases : forall w, is_blank w = true -> w = 32 \/ w = 9 \/ w = 10 \/ w = 13.
Proof.
  intros w B. unfold is_blank in B.
  repeat (apply orb_true_iff in B; destruct B as [B|B]); apply Z.eqb_eq in B; auto.
Qed.

Lemma is_blank_lt128 : forall b, is_blank b = true -> b < 128.
Proof. intros b H. destruct (blank_cases b H) as [->|[->|[->| ->]]]; reflexivity. Qed.

Lemma scan1_via : forall src F fuel st2, nonneg src -> (exists p, src = p ++ s_cur st2) ->
  (forall t st', scan (fuel_for src) (fuel_for src) (init src) = Some (t, st') ->
                 scan F fuel st2 = Some (t, st')) ->
  scan1 src = scan1 (s_cur st2).
Proof.
  intros src F fuel st2 N (p & Hp) Hvia. destruct (scan_init src) as (t & st' & H).
  assert (N2 : nonneg (s_cur st2)) by (rewrite Hp in N; exact (nonneg_app_r _ _ N)).
  change src with (s_cur (init src)) at 1. rewrite (scan_scan1 _ _ (init src) t st' N H). symmetry. exact (scan_scan1 _ _ _ _ _ N2 (Hvia _ _ H)).
Qed.

Lemma scan1_blank : forall b rest, is_blank b = true -> nonneg (b :: rest) ->
  scan1 (b :: rest) = scan1 rest.
Proof.
  intros b rest B N. pose proof (is_blank_lt128 b B) as L. set (a := init (b :: rest)).
  assert (En : s_cur (next a) = rest) by (apply (next_ascii a b); [reflexivity | exact L]).
  transitivity (scan1 (s_cur (next a))); [|rewrite En; reflexivity].
  apply (scan1_via _ (fuel_for (b :: rest)) (fuel_for (b :: rest))); [exact N | |].
  - exists [b]. rewrite En. reflexivity.
  - intros t st' H. fold a in H. unfold fuel_for in H at 2 |- * at 2. rewrite scan_unfold in H |- *.
    (* [fuel_for _] is a successor: one round of [skip_ws], by conversion *)
    change (skip_ws ?f a) with (if is_blank (ch a) then skip_ws (pred f) (next a) else Some a) in H.
    rewrite (ch_lt128 a b rest eq_refl L), B in H. bind_some H st0 W.
    rewrite (skip_ws_mono _ (fuel_for (b :: rest)) _ _ W) by (unfold fuel_for; lia). exact H.
Qed.

Lemma next_within : forall st b c X, s_cur st = (b :: c) ++ X -> hard X ->
  exists c', s_cur (next st) = c' ++ X /\ (length c' <= length c)%nat /\
             (exists p, b :: c = p ++ c').
Proof.
  intros st b c X E HX. pose proof (read_width b c) as W.
  exists (skipn (snd (read (b :: c))) (b :: c)). split; [exact (next_skipn st b c X E HX)|]. split.
  - rewrite skipn_length. cbn [length] in *. lia.
  - exists (firstn (snd (read (b :: c))) (b :: c)). symmetry. apply firstn_skipn.
Qed.

Lemma line_comment_run : forall fuel c rest c0 col0 st,
  s_cur st = c ++ 10 :: rest -> c <> [] -> (forall x, In x c -> x <> 10) -> nonneg (c ++ 10 :: rest) ->
  (length c < fuel)%nat ->
  exists r, line_comment fuel c0 col0 st = Some r /\ s_cur r = 10 :: rest.
Proof.
  induction fuel as [|f IH]; intros c rest c0 col0 st E NE N10 NN L; [lia|].
  destruct c as [|b c]; [contradiction|]. cbn [line_comment].
  assert (P : 0 <= ch st).
  { apply ch_nonneg_of; [rewrite E; exact NN | unfold len; rewrite E; cbn; lia]. }
  destruct (Z.geb_spec (ch st) 0); [|lia].
  destruct (next_within st b c (10 :: rest) E (hard_lt128 10 rest eq_refl)) as (c' & En & Lc & (p & Hp)).
  destruct c' as [|b' c'].
  - rewrite (ch_lt128 _ 10 rest En eq_refl). eexists. split; [reflexivity|].
    rewrite (proj1 (line_directive_cur_po _ _ _)). exact En.
  - assert (I' : In b' (b :: c)) by (rewrite Hp; apply in_or_app; right; left; reflexivity).
    replace (ch (next st) =? 10) with false.
    2: { symmetry. apply Z.eqb_neq. unfold ch. rewrite En.
         apply read_not_ascii; [apply N10; exact I' | lia]. }
    apply (IH (b' :: c') rest c0 col0 (next st) En); try discriminate.
    + intros x Hx. apply N10. rewrite Hp. apply in_or_app. right. exact Hx.
    + rewrite Hp, <- app_assoc in NN. apply nonneg_app in NN. tauto.
    + cbn [length] in *. lia.
Qed.

(** the list contains the pair star, slash *)
Fixpoint has_close (l : list Z) : bool :=
  match l with
  | a :: (b :: _) as t => ((a =? 42) && (b =? 47)) || has_close t
  | _ => false
  end.

Lemma has_close_app_r : forall p l, has_close (p ++ l) = false -> has_close l = false.
Proof.
  induction p as [|a p IH]; intros l H; [exact H|]. apply IH.
  cbn [app] in H. destruct (p ++ l) as [|b t] eqn:E; [reflexivity|].
  cbn [has_close] in H. apply orb_false_iff in H. tauto.
Qed.

Lemma no_close_here : forall st b c t, s_cur st = (b :: c) ++ 42 :: t -> has_close (b :: c) = false ->
  (ch st =? 42) && (ch (next st) =? 47) = false.
Proof.
  intros st b c t E HC. apply andb_false_iff. destruct (Z.eq_dec b 42) as [->|Nb].
  - right. apply Z.eqb_neq. unfold ch. rewrite (next_ascii st 42 _ E) by reflexivity.
    destruct c as [|b1 c1]; cbn [app].
    + rewrite read_lt128 by reflexivity. discriminate.
    + apply read_not_ascii; [|lia]. intros ->. discriminate HC.
  - left. apply Z.eqb_neq. unfold ch. rewrite E. apply read_not_ascii; [exact Nb | lia].
Qed.

Lemma block_comment_run : forall fuel c rest st,
  s_cur st = c ++ 42 :: 47 :: rest -> has_close c = false -> nonneg (c ++ 42 :: 47 :: rest) ->
  (S (length c) < fuel)%nat ->
  exists r, block_comment fuel st = Some r /\ s_cur r = rest.
Proof.
  induction fuel as [|f IH]; intros c rest st E HC NN L; [lia|]. cbn [block_comment].
  assert (P : 0 <= ch st).
  { apply ch_nonneg_of; [rewrite E; exact NN | unfold len; rewrite E, app_length; cbn; lia]. }
  destruct (Z.geb_spec (ch st) 0); [|lia].
  destruct c as [|b c].
  - cbn [app] in E. rewrite (ch_lt128 st 42 _ E eq_refl).
    assert (En : s_cur (next st) = 47 :: rest) by (eapply next_ascii; [exact E | reflexivity]).
    rewrite (ch_lt128 _ 47 rest En eq_refl). cbn [Z.eqb Pos.eqb andb].
    eexists. split; [reflexivity|]. eapply next_ascii; [exact En | reflexivity].
  - destruct (next_within st b c (42 :: 47 :: rest) E (hard_lt128 42 _ eq_refl))
      as (c' & En & Lc & (p & Hp)).
    assert (HC' : has_close c' = false) by (apply (has_close_app_r p); rewrite <- Hp; exact HC).
    rewrite (no_close_here st b c _ E HC).
    apply (IH c' rest (next st) En HC').
    + rewrite Hp, <- app_assoc in NN. apply nonneg_app in NN. tauto.
    + cbn [length] in L. lia.
Qed.

Lemma scan_comment_start : forall F f a k, ch a = 47 -> ch (next a) = k -> k = 47 \/ k = 42 ->
  scan (S F) (S f) a = do st2 <- scan_comment (S F) a (next a); scan (S F) f st2.
Proof.
  intros F f a k Ca Cn K. rewrite scan_unfold. cbn [skip_ws]. rewrite Ca.
  change (is_blank 47) with false. cbn [opt_bind]. unfold scan_tok.
  rewrite Ca, Cn. destruct K as [-> | ->]; reflexivity.
Qed.

Lemma scan1_comment : forall k t rest, k = 47 \/ k = 42 -> nonneg (47 :: k :: t) ->
  (exists p, 47 :: k :: t = p ++ rest) ->
  (forall a, s_cur (next a) = k :: t -> ch (next a) = k ->
     exists r, scan_comment (fuel_for (47 :: k :: t)) a (next a) = Some r /\ s_cur r = rest) ->
  scan1 (47 :: k :: t) = scan1 rest.
Proof.
  intros k t rest K NN Suf Hc. set (src := 47 :: k :: t) in *. set (a := init src).
  assert (Ca : ch a = 47) by (apply (ch_lt128 a 47 (k :: t)); [reflexivity | reflexivity]).
  assert (En : s_cur (next a) = k :: t) by (apply (next_ascii a 47); [reflexivity | reflexivity]).
  assert (Cn : ch (next a) = k) by (apply (ch_lt128 _ k t En); destruct K; lia).
  destruct (Hc a En Cn) as (r & Hr & Er).
  rewrite <- Er. apply (scan1_via src (fuel_for src) (S (S (length src)))); [exact NN | rewrite Er; exact Suf |].
  intros tk st' H. unfold fuel_for in H, Hr. rewrite (scan_comment_start _ _ a k Ca Cn K) in H.
  rewrite Hr in H. exact H.
Qed.

Lemma scan1_line_comment : forall body rest, (forall x, In x body -> x <> 10) ->
  nonneg (47 :: 47 :: body ++ 10 :: rest) ->
  scan1 (47 :: 47 :: body ++ 10 :: rest) = scan1 (10 :: rest).
Proof.
  intros body rest N10 NN. apply scan1_comment; [left; reflexivity | exact NN | exists (47 :: 47 :: body); reflexivity |].
  intros a En Cn. unfold scan_comment. rewrite Cn. cbn [Z.eqb Pos.eqb].
  apply (line_comment_run _ (47 :: body) rest _ _ (next a) En); try discriminate.
  - intros x [Hx|Hx]; [lia | apply N10; exact Hx].
  - exact (nonneg_tl _ _ NN).
  - unfold fuel_for. cbn [length]. rewrite app_length. cbn [length]. lia.
Qed.

Lemma scan1_block_comment : forall body rest, has_close body = false ->
  nonneg (47 :: 42 :: body ++ 42 :: 47 :: rest) ->
  scan1 (47 :: 42 :: body ++ 42 :: 47 :: rest) = scan1 rest.
Proof.
  intros body rest HC NN. apply scan1_comment; [right; reflexivity | exact NN | |].
  { exists (47 :: 42 :: body ++ [42; 47]). cbn [app]. rewrite <- app_assoc. reflexivity. }
  intros a En Cn. unfold scan_comment, expect. rewrite Cn. cbn [Z.eqb Pos.eqb].
  apply (block_comment_run _ body rest); [eapply next_ascii; [exact En | reflexivity] | exact HC | |].
  - exact (nonneg_tl _ _ (nonneg_tl _ _ NN)).
  - unfold fuel_for. cbn [length]. rewrite app_length. cbn [length]. lia.
Qed.

(** Layout: blanks, [// ... newline] comments (the newline included) and [/* ... */]
    comments (the body not containing the closing pair). *)
Inductive is_layout : list Z -> Prop :=
| lay_nil : is_layout []
| lay_blank : forall b l, is_blank b = true -> is_layout l -> is_layout (b :: l)
| lay_line : forall body l, (forall x, In x body -> x <> 10) -> is_layout l ->
    is_layout (47 :: 47 :: body ++ 10 :: l)
| lay_block : forall body l, has_close body = false -> is_layout l ->
    is_layout (47 :: 42 :: body ++ 42 :: 47 :: l).

Theorem scan1_layout : forall ws suf, is_layout ws -> nonneg (ws ++ suf) ->
  scan1 (ws ++ suf) = scan1 suf.
Proof.
  intros ws suf L. induction L as [|b l B L IH|body l N10 L IH|body l HC L IH]; intro NN.
  - reflexivity.
  - cbn [app] in *. rewrite scan1_blank by assumption. apply IH, (nonneg_tl _ _ NN).
  - cbn [app] in *. rewrite <- app_assoc in *. cbn [app] in *.
    rewrite scan1_line_comment by assumption.
    pose proof (nonneg_app_r (47 :: 47 :: body) _ NN) as NN'.
    rewrite scan1_blank; [|reflexivity | exact NN']. apply IH, (nonneg_tl _ _ NN').
  - cbn [app] in *. rewrite <- app_assoc in *. cbn [app] in *.
    rewrite scan1_block_comment by assumption.
    apply IH, (nonneg_tl _ _ (nonneg_tl _ _ (nonneg_app_r (47 :: 42 :: body) _ NN))).
Qed.

Theorem toks_layout : forall ws suf, is_layout ws -> nonneg (ws ++ suf) ->
  toks (ws ++ suf) = toks suf.
Proof.
  intros ws suf L NN. destruct (scan1_total suf) as ([ty lit] & cur' & H).
  pose proof (scan1_layout ws suf L NN) as E. rewrite H in E.
  rewrite (toks_step _ _ _ _ NN E).
  apply nonneg_app in NN. destruct NN as (_ & NS).
  rewrite (toks_step _ _ _ _ NS H). reflexivity.
Qed.

Lemma is_layout_app : forall a b, is_layout a -> is_layout b -> is_layout (a ++ b).
Proof.
  intros a b La Lb. induction La; cbn [app].
  - exact Lb.
  - constructor; assumption.
  - rewrite <- app_assoc. cbn [app]. constructor; assumption.
  - rewrite <- app_assoc. cbn [app]. constructor; assumption.
Qed.

Fixpoint run (k : nat) (cur : list Z) : option (list (Z * list Z) * list Z) :=
  match k with
  | O => Some ([], cur)
  | S k' =>
    match scan1 cur with
    | Some ((ty, lit), cur') =>
      if ty =? 0 then None
      else match run k' cur' with
           | Some (T, c) => Some ((ty, lit) :: T, c)
           | None => None
           end
    | None => None
    end
  end.

(** After some number of complete Scan calls on [pre ++ suf] the scanner is about to
    start a Scan call exactly at [suf]. *)
Definition boundary (pre suf : list Z) : Prop :=
  exists k T, run k (pre ++ suf) = Some (T, suf).

Lemma run_S : forall k cur T c, run (S k) cur = Some (T, c) ->
  exists ty lit cur' T', scan1 cur = Some ((ty, lit), cur') /\ (ty =? 0) = false /\
                         run k cur' = Some (T', c) /\ T = (ty, lit) :: T'.
Proof.
  intros k cur T c H. cbn [run] in H.
  destruct (scan1 cur) as [[[ty lit] cur']|]; [|discriminate].
  destruct (ty =? 0) eqn:Z0; [discriminate|].
  destruct (run k cur') as [[T' c']|] eqn:R; [|discriminate]. injection H as <- <-.
  exists ty, lit, cur', T'. repeat split; assumption.
Qed.

Lemma run_suffix : forall k cur T c, run k cur = Some (T, c) -> exists p, cur = p ++ c.
Proof.
  induction k as [|k IH]; intros cur T c H.
  - injection H as _ <-. exists []. reflexivity.
  - destruct (run_S _ _ _ _ H) as (ty & lit & cur' & T' & S1 & _ & R & _).
    destruct (IH _ _ _ R) as (p & Hp). destruct (scan1_suffix _ _ _ S1) as (q & Hq).
    exists (q ++ p). rewrite Hq, Hp, app_assoc. reflexivity.
Qed.

Lemma toks_run : forall k cur T c, nonneg cur -> run k cur = Some (T, c) -> toks cur = T ++ toks c.
Proof.
  induction k as [|k IH]; intros cur T c N H.
  - injection H as <- <-. reflexivity.
  - destruct (run_S _ _ _ _ H) as (ty & lit & cur' & T' & S1 & Z0 & R & ->).
    rewrite (toks_step _ _ _ _ N S1), Z0. cbn [app]. f_equal.
    apply IH; [|exact R]. destruct (scan1_suffix _ _ _ S1) as (q & Hq).
    rewrite Hq in N. exact (nonneg_app_r _ _ N).
Qed.

(** [Y] may take the place of [X] behind a boundary; [to_len]: the fuel that [fscan_all] gives the second run must not
    be less *)
Record tails_ok (X Y : list Z) (PS : Prop) : Prop := {
  to_hard : X <> [] /\ Y <> [] /\ hard X /\ hard Y /\ nonneg X;
  to_len : (length X <= length Y)%nat;
  to_look : look_alike X Y PS }.

(** what [sim] asks of the common prefix *)
Definition okc (PS : Prop) (c : list Z) : Prop := nonneg c /\ (forall c', c = c' ++ [47] -> PS).

Lemma scan1_local : forall X Y PS c tk cur', tails_ok X Y PS -> okc PS c ->
  scan1 (c ++ X) = Some (tk, cur') -> (length X <= length cur')%nat ->
  exists c', cur' = c' ++ X /\ scan1 (c ++ Y) = Some (tk, c' ++ Y) /\ okc PS c'.
Proof.
  intros X Y PS c tk cur' [Hc LXY Hl] (Nc & Pc) H L. unfold scan1 in H.
  destruct (scan _ _ (init (c ++ X))) as [[t ra]|] eqn:S1; [|discriminate].
  injection H as <- <-.
  assert (Sab : sim X Y PS (init (c ++ X)) (init (c ++ Y))).
  { exists c. repeat split; assumption. }
  destruct (scan_sim X Y PS (or_intror Hc) Hl _ _ _ _ _ _ Sab S1 L (fuel_for (c ++ Y)) (fuel_for (c ++ Y)))
    as (tb & rb & Hb & (c' & Nc' & Pc' & Ea & Eb) & Teq).
  - unfold fuel_for. rewrite !app_length. lia.
  - unfold fuel_for. rewrite !app_length. lia.
  - exists c'. split; [exact Ea|]. split; [|split; assumption].
    unfold scan1. rewrite Hb, Eb, Teq. reflexivity.
Qed.

Lemma run_local : forall X Y PS, tails_ok X Y PS ->
  forall k c T, okc PS c -> run k (c ++ X) = Some (T, X) -> run k (c ++ Y) = Some (T, Y).
Proof.
  intros X Y PS HT. induction k as [|k IH]; intros c T Oc H.
  - injection H as <- Hc. change X with ([] ++ X) in Hc at 2. apply app_inv_tail in Hc.
    subst c. reflexivity.
  - destruct (run_S _ _ _ _ H) as (ty & lit & cur' & T' & S1 & Z0 & R & ->).
    destruct (run_suffix _ _ _ _ R) as (p & Hp).
    destruct (scan1_local X Y PS c (ty, lit) cur' HT Oc S1) as (c' & Ec & S2 & Oc').
    { rewrite Hp, app_length. lia. }
    cbn [run]. rewrite S2, Z0. rewrite Ec in R. rewrite (IH c' T' Oc' R). reflexivity.
Qed.

Lemma toks_local : forall X Y PS pre, tails_ok X Y PS -> okc PS pre -> nonneg Y -> boundary pre X ->
  toks X = toks Y -> toks (pre ++ X) = toks (pre ++ Y).
Proof.
  intros X Y PS pre HT Oc NNY (k & T & R) E.
  assert (Np : forall t, nonneg t -> nonneg (pre ++ t)) by (intros; apply nonneg_app; split; [apply Oc | assumption]).
  rewrite (toks_run k _ T X (Np X ltac:(apply HT)) R), (toks_run k _ T Y (Np Y NNY) (run_local X Y PS HT k pre T Oc R)), E.
  reflexivity.
Qed.

Lemma is_layout_head : forall l L, is_layout (l :: L) -> is_blank l = true \/ l = 47.
Proof. intros l L H. inversion H; subst; auto. Qed.

Lemma is_layout_head_lt128 : forall l L, is_layout (l :: L) -> l < 128.
Proof. intros l L H. destruct (is_layout_head l L H) as [B| ->]; [apply is_blank_lt128, B | lia]. Qed.

Lemma first_ch_lt128 : forall b t, b < 128 -> first_ch (b :: t) = b.
Proof. intros b t L. unfold first_ch. rewrite (read_lt128 b t L). reflexivity. Qed.

Theorem layout_insert_in_layout : forall pre L1 ws suf,
  nonneg (pre ++ L1 ++ ws ++ suf) ->
  is_layout L1 -> L1 <> [] -> is_layout ws ->
  boundary pre (L1 ++ suf) ->
  toks (pre ++ L1 ++ ws ++ suf) = toks (pre ++ L1 ++ suf).
Proof.
  intros pre L1 ws suf NN LL1 NE Lws R.
  destruct L1 as [|l L1']; [contradiction|]. pose proof (is_layout_head_lt128 _ _ LL1) as Ll.
  apply nonneg_app in NN. destruct NN as (Npre & NN).
  assert (NN' := NN). rewrite app_assoc in NN'. apply nonneg_app in NN'. destruct NN' as (NN' & Nsuf).
  apply nonneg_app in NN'. destruct NN' as (NL1 & _).
  assert (NX : nonneg ((l :: L1') ++ suf)) by (apply nonneg_app; split; assumption).
  assert (T : tails_ok ((l :: L1') ++ suf) ((l :: L1') ++ ws ++ suf) True).
  { split.
    - repeat split; [discriminate | discriminate | exact (hard_lt128 l _ Ll) | exact (hard_lt128 l _ Ll) | exact NX].
    - rewrite !app_length. lia.
    - apply look_alike_first. cbn [app]. rewrite !first_ch_lt128 by exact Ll. reflexivity. }
  symmetry. apply (toks_local _ _ True pre T); [split; auto | exact NN | exact R |].
  - rewrite (toks_layout (l :: L1') suf LL1 NX), app_assoc. symmetry.
    apply toks_layout; [apply is_layout_app; assumption|]. rewrite <- app_assoc. exact NN.
Qed.

Lemma layout_head_props : forall w, is_blank w = true \/ w = 47 ->
  ident_char w = false /\ (w =? 60) = false /\ (w =? 61) = false.
Proof.
  intros w [B|E].
  - destruct (blank_cases w B) as [E|[E|[E|E]]]; rewrite E; vm_compute; auto.
  - rewrite E. vm_compute. auto.
Qed.

Lemma blank_not_slash : forall w, is_blank w = true -> ((w =? 47) || (w =? 42)) = false.
Proof.
  intros w B. destruct (blank_cases w B) as [E|[E|[E|E]]]; rewrite E; reflexivity.
Qed.

Definition ends_with_slash (pre : list Z) : Prop := exists p, pre = p ++ [47].

(** After the lone-slash token the layout must not begin a comment together with that slash ([not_covered_slash]),
    hence the blank. *)
Theorem layout_insert : forall pre ws suf,
  nonneg (pre ++ ws ++ suf) ->
  is_layout ws ->
  boundary pre suf ->
  suf <> [] -> hard suf ->
  (ends_with_slash pre -> match ws with [] => True | w :: _ => is_blank w = true end) ->
  toks (pre ++ ws ++ suf) = toks (pre ++ suf).
Proof.
  intros pre ws suf NN Lws R NS HS SL.
  destruct ws as [|w ws']; [reflexivity|]. pose proof (is_layout_head_lt128 _ _ Lws) as Lw.
  apply nonneg_app in NN. destruct NN as (Npre & NN).
  assert (NN' := NN). apply nonneg_app in NN'. destruct NN' as (Nws & Nsuf).
  assert (T : tails_ok suf ((w :: ws') ++ suf) (ends_with_slash pre)).
  { split.
    - repeat split; [exact NS | discriminate | exact HS | exact (hard_lt128 w _ Lw) | exact Nsuf].
    - rewrite app_length. lia.
    - split; cbn [app]; rewrite (first_ch_lt128 w _ Lw).
      + intros _. apply (layout_head_props w (is_layout_head _ _ Lws)).
      + intros PSl _. apply blank_not_slash, (SL PSl).
      + intros _ _. apply (layout_head_props w (is_layout_head _ _ Lws)). }
  symmetry. apply (toks_local _ _ _ pre T); [| exact NN | exact R |].
  - split; [exact Npre|]. intros c' Hc'. exists c'. exact Hc'.
  - symmetry. apply toks_layout; assumption.
Qed.

(** The same statements spelled out with [fscan_all]. *)
Corollary fscan_all_layout_insert : forall pre ws suf,
  nonneg (pre ++ ws ++ suf) -> is_layout ws -> boundary pre suf -> suf <> [] -> hard suf ->
  (ends_with_slash pre -> match ws with [] => True | w :: _ => is_blank w = true end) ->
  map strip (fst (fscan_all (pre ++ ws ++ suf))) = map strip (fst (fscan_all (pre ++ suf))).
Proof. exact layout_insert. Qed.

Corollary fscan_all_layout_insert_in_layout : forall pre L1 ws suf,
  nonneg (pre ++ L1 ++ ws ++ suf) -> is_layout L1 -> L1 <> [] -> is_layout ws ->
  boundary pre (L1 ++ suf) ->
  map strip (fst (fscan_all (pre ++ L1 ++ ws ++ suf))) =
  map strip (fst (fscan_all (pre ++ L1 ++ suf))).
Proof. exact layout_insert_in_layout. Qed.

Corollary fscan_all_leading_layout : forall ws suf, is_layout ws -> nonneg (ws ++ suf) ->
  map strip (fst (fscan_all (ws ++ suf))) = map strip (fst (fscan_all suf)).
Proof. exact toks_layout. Qed.

(** the insertion points of [layout_insert] can be read off the token list *)

Lemma scan_all_boundaries : forall F fuel st ts st',
  scan_all F fuel st = Some (ts, st') -> nonneg (s_cur st) ->
  forall t, In t ts -> f_type t <> 0 ->
  exists k T stt, run k (s_cur st) = Some (T, s_cur stt) /\ adv st stt /\ s_po stt = tok_end t.
Proof.
  intros F. induction fuel as [|f IH]; intros st ts st' H N t I NZ; [discriminate|].
  destruct (scan_all_S _ _ _ _ _ H) as (t1 & st1 & S1 & [(Z0 & -> & _) | (Z0 & ts2 & S2 & ->)]).
  - destruct I as [I|[]]. subst t1. apply Z.eqb_eq in Z0. contradiction.
  - pose proof (scan_scan1 _ _ _ _ _ N S1) as S1'. pose proof (scan_nonneg _ _ _ _ _ S1 N) as N1.
    destruct I as [I|I].
    + subst t1. exists 1%nat, [strip t], st1. split; [|split].
      * cbn [run]. rewrite S1'. unfold strip at 1. cbn beta iota. rewrite Z0. reflexivity.
      * eapply scan_adv; exact S1.
      * apply (tok_end_po st). eapply scan_spec; exact S1.
    + destruct (IH st1 ts2 st' S2 N1 t I NZ) as (k & T & stt & R & A & P).
      exists (S k), (strip t1 :: T), stt. split; [|split].
      * cbn [run]. rewrite S1'. unfold strip at 1. cbn beta iota. rewrite Z0, R. reflexivity.
      * eapply adv_trans; [eapply scan_adv; exact S1 | exact A].
      * exact P.
Qed.

Theorem boundary_start : forall src, boundary [] src.
Proof. intro src. exists 0%nat, []. reflexivity. Qed.

Theorem boundary_token_end : forall src ts e t, nonneg src ->
  fscan_all src = (ts, e) -> In t ts -> f_type t <> 0 ->
  boundary (firstn (Z.to_nat (tok_end t)) src) (skipn (Z.to_nat (tok_end t)) src).
Proof.
  intros src ts e t N H I NZ. apply fscan_all_inv in H. destruct H as (st' & H).
  destruct (scan_all_boundaries _ _ _ _ _ H N t I NZ) as (k & T & stt & R & (p & Hp & Pp) & P).
  cbn [init s_cur s_po] in *. rewrite <- P, Pp, Z.add_0_l, Nat2Z.id. subst src.
  rewrite firstn_length_app, skipn_length_app. exists k, T. exact R.
Qed.

(* imported here and not at the head: after it [length] is String.length *)
Require Import Coq.Strings.String Coq.Strings.Ascii.

Definition B (s : string) : list Z :=
  List.map (fun a => Z.of_nat (nat_of_ascii a)) (list_ascii_of_string s).

(* A:b; -> tokens prodId ":" tokId ";" EOF *)
Example ex_toks : toks (B "A:b;") =
  [(17, B "A"); (3, B ":"); (2, B "b"); (4, B ";"); (0, [])].
Proof. vm_compute. reflexivity. Qed.

(* the words error / empty / import *)
Example ex_words : toks (B "error empty import") =
  [(2, B "error"); (2, B "empty"); (-1, B "import"); (0, [])].
Proof. vm_compute. reflexivity. Qed.

(* the hypotheses of [layout_insert] are checkable by computation *)
Example ex_layout_insert :
  toks (B "A" ++ B " /* c */ // d" ++ [10] ++ B ":b;") = toks (B "A" ++ B ":b;").
Proof.
  change (B " /* c */ // d" ++ [10] ++ B ":b;") with ((B " /* c */ // d" ++ [10]) ++ B ":b;").
  apply layout_insert.
  - vm_compute. repeat constructor; discriminate.
  - vm_compute.
    apply lay_blank; [reflexivity|].
    apply (lay_block (B " c ") (B " // d" ++ [10])); [reflexivity|].
    apply lay_blank; [reflexivity|].
    apply (lay_line (B " d") []); [|constructor].
    vm_compute. intros x [H|[H|H]]; [subst; discriminate | subst; discriminate | contradiction].
  - exists 1%nat, [(17, B "A")]. vm_compute. reflexivity.
  - discriminate.
  - reflexivity.
  - intros (p & Hp). exfalso. destruct p as [|a [|b p]]; discriminate.
Qed.

(* a comment directly after the lone-slash token makes a line comment *)
Example not_covered_slash : toks (B "/" ++ B "/**/" ++ B "a") <> toks (B "/" ++ B "a").
Proof. vm_compute. discriminate. Qed.

(* layout after an unterminated string at end of file is swallowed by the string token *)
Example not_covered_eof_string :
  toks (B """abc" ++ B " ") <> toks (B """abc").
Proof. vm_compute. discriminate. Qed.

(* the point between a line comment and its newline is not a boundary: a block comment
   containing a newline inserted there is cut in two *)
Example not_covered_line_comment :
  toks (B "a //c" ++ [47; 42; 10; 42; 47] ++ [10] ++ B "b") <> toks (B "a //c" ++ [10] ++ B "b").
Proof. vm_compute. discriminate. Qed.

(* layout inside a token *)
Example not_covered_inside : toks (B "ab" ++ B " " ++ B "c") <> toks (B "ab" ++ B "c").
Proof. vm_compute. discriminate. Qed.

Print Assumptions fscan_opt_total.
Print Assumptions fscan_all_ends_with_eof.
Print Assumptions fscan_all_lits.
Print Assumptions tok_lit_slice.
Print Assumptions fscan_all_offsets.
Print Assumptions toks_layout.
Print Assumptions layout_insert.
Print Assumptions layout_insert_in_layout.
Print Assumptions boundary_token_end.
