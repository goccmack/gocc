(** The one semantic check that runs DURING parsing (ast.NewLexCharRange): a character
    range whose upper bound lies below its lower bound is refused.  In the spec '-' occurs only in
    LexTerm : char_lit '-' char_lit, so in a sentence every '-' stands between the two bounds of a range.
    The bounds are decoded by [LitConv.lit_to_rune] (the model of util.LitToRune, C20); a literal it does not decode
    makes Go panic earlier (character level, outside the model): such a range is not judged here. *)
From Coq Require Import List ZArith Bool.
From Gocc Require Import LR.Parse Front.FScan Front.LitConv Front.Sem.
Import ListNotations.
Open Scope Z_scope.

Section Range.
Variable cl : Z.   (* token type of char_lit *)
Variable mn : Z.   (* token type of '-' *)

Definition is_t (ty : Z) (t : ftok) : bool := f_type t =? ty.

Definition empty_range (a c : ftok) : bool :=
  match lit_to_rune (f_lit a), lit_to_rune (f_lit c) with
  | Some x, Some y => y <? x
  | _, _ => false
  end.

Fixpoint ranges_ok (toks : list ftok) : bool :=
  match toks with
  | a :: r =>
    match r with
    | b :: c :: _ => if is_t cl a && is_t mn b && is_t cl c && empty_range a c then false else ranges_ok r
    | _ => true
    end
  | [] => true
  end.

Definition no_empty_range (toks : list ftok) : Prop :=
  forall pre a b c post, toks = pre ++ a :: b :: c :: post ->
    is_t cl a = true -> is_t mn b = true -> is_t cl c = true -> empty_range a c = false.

Lemma ranges_ok_iff toks : ranges_ok toks = true <-> no_empty_range toks.
Proof.
  induction toks as [|a r IH].
  - split; [|reflexivity]. intros _ pre a b c post H. destruct pre; discriminate.
  - cbn [ranges_ok]. destruct r as [|b [|c r']].
    + split; [|reflexivity]. intros _ pre x y z post H. destruct pre as [|? [|? [|? ?]]]; discriminate.
    + split; [|reflexivity]. intros _ pre x y z post H. destruct pre as [|? [|? [|? ?]]]; discriminate.
    + destruct (is_t cl a && is_t mn b && is_t cl c && empty_range a c) eqn:E.
      * split; [discriminate|]. intros H. exfalso.
        rewrite !andb_true_iff in E. destruct E as (((E1 & E2) & E3) & E4).
        rewrite (H [] a b c r' eq_refl E1 E2 E3) in E4. discriminate.
      * rewrite IH. split.
        -- intros H pre x y z post Hq Hx Hy Hz. destruct pre as [|p pre].
           ++ simpl in Hq. inversion Hq; subst. rewrite Hx, Hy, Hz in E. simpl in E. exact E.
           ++ simpl in Hq. inversion Hq; subst. eapply H; eauto.
        -- intros H pre x y z post Hq. apply (H (a :: pre) x y z post). simpl. now rewrite Hq.
Qed.

End Range.

(** what [modelrun frontsem] evaluates *)
Definition front_accepts_r (ft : ftypes) (cl mn : Z) (tb : tables) (fuel : nat) (toks : list ftok) : bool :=
  front_accepts ft tb fuel toks && ranges_ok cl mn toks.

Lemma front_accepts_r_iff ft cl mn tb fuel toks :
  front_accepts_r ft cl mn tb fuel toks = true <->
  front_accepts ft tb fuel toks = true /\ no_empty_range cl mn toks.
Proof. unfold front_accepts_r. rewrite andb_true_iff, ranges_ok_iff. tauto. Qed.

Example empty_range_refused :
  ranges_ok 9 10 [ {| f_type := 9; f_lit := [39; 122; 39]; f_off := 0; f_line := 1; f_col := 1 |};
                   {| f_type := 10; f_lit := [45]; f_off := 3; f_line := 1; f_col := 4 |};
                   {| f_type := 9; f_lit := [39; 97; 39]; f_off := 4; f_line := 1; f_col := 5 |} ] = false.
Proof. vm_compute. reflexivity. Qed.
