(** Proofs about Front/LexAst.v: [print_pattern regs p] spells a pattern as classified tokens (class + literal bytes;
    groups with their brackets, alternatives separated by "|", character literals in the \U spelling of GoLit.spell, a
    reference as the NAME of the regular definition), and parsing it gives [p] back ([parse_print], and
    [parse_pattern_print] through front-end tokens with the shipped type numbers) for every pattern that satisfies
    [wf_pattern regs]:
      - the pattern and every group body have at least one alternative, every alternative at least one term
        (LexPattern = LexAlt {"|" LexAlt}, LexAlt = LexTerm+),
      - character values are Unicode scalar values (what a literal can denote), ranges have lo <= hi
        (ast.NewLexCharRange refuses the others),
      - a reference [Ref n] points into [regs] and [n] is the FIRST position of that name.
    Left out: [LexAst.runes_of] takes fuel (the length of the text; each round consumes at least one byte); no lemma
    states that this fuel suffices. *)
From Coq Require Import List ZArith Bool.
From Gocc Require Import Base.Utf8 Lex.Pattern Front.LitConv Front.GoLit Front.LitConvProofs Front.FScan Front.Sem Front.LexAst.
Import ListNotations.
Local Open Scope Z_scope.

Definition chr_lit (c : Z) : list Z := match spell BigU c with Some l => l | None => [] end.

Definition t_bar : ltok := (CBar, [124]).
Definition t_open (k : bkind) : ltok := (COpen k, [match k with BOpt => 91 | BRep => 123 | BGrp => 40 end]).
Definition t_close (k : bkind) : ltok := (CClose k, [match k with BOpt => 93 | BRep => 125 | BGrp => 41 end]).

Definition print_alts (pa : list term -> list ltok) (p : list (list term)) : list ltok :=
  match p with
  | [] => []
  | a :: r => pa a ++ flat_map (fun b => t_bar :: pa b) r
  end.

Section Printer.
Variable regs : list name.

Fixpoint print_term (t : term) : list ltok :=
  match t with
  | Chr c => [(CChar, chr_lit c)]
  | Rng lo hi => [(CChar, chr_lit lo); (CMinus, [45]); (CChar, chr_lit hi)]
  | Dot => [(CDot, [46])]
  | Ref n => [(CRef, nth n regs [])]
  | Opt p => t_open BOpt :: print_alts (flat_map print_term) p ++ [t_close BOpt]
  | Rep p => t_open BRep :: print_alts (flat_map print_term) p ++ [t_close BRep]
  | Grp p => t_open BGrp :: print_alts (flat_map print_term) p ++ [t_close BGrp]
  end.

Definition print_alt (a : Pattern.alt) : list ltok := flat_map print_term a.
Definition print_pattern (p : pattern) : list ltok := print_alts print_alt p.

Definition nonempty {A} (l : list A) : bool := match l with [] => false | _ :: _ => true end.

Definition ref_ok (n : nat) : bool :=
  match nth_error regs n with
  | Some nm => match index_of nm regs with Some m => Nat.eqb m n | None => false end
  | None => false
  end.

Fixpoint wf_term (t : term) : bool :=
  match t with
  | Chr c => is_scalar c
  | Rng lo hi => is_scalar lo && is_scalar hi && (lo <=? hi)
  | Dot => true
  | Ref n => ref_ok n
  | Opt p | Rep p | Grp p => nonempty p && forallb (fun a => nonempty a && forallb wf_term a) p
  end.

Definition wf_alt (a : Pattern.alt) : bool := nonempty a && forallb wf_term a.
Definition wf_pattern (p : pattern) : bool := nonempty p && forallb wf_alt p.

Lemma chr_lit_ok c : is_scalar c = true -> lit_to_rune (chr_lit c) = Some c.
Proof.
  intros H. unfold chr_lit. destruct (spell BigU c) as [l|] eqn:E.
  - apply lit_to_rune_agrees. eapply spell_denotes; eauto.
  - exfalso. exact (spell_BigU_defined c H E).
Qed.

Lemma step_dot stk alts cur l r :
  parse_tokens regs stk alts cur ((CDot, l) :: r) = parse_tokens regs stk alts (Dot :: cur) r.
Proof. reflexivity. Qed.

Lemma step_chr stk alts cur l v r : lit_to_rune l = Some v ->
  parse_tokens regs stk alts cur ((CChar, l) :: r) = parse_tokens regs stk alts (Chr v :: cur) r.
Proof. intros H. cbn [parse_tokens]. rewrite H. reflexivity. Qed.

Lemma step_rng stk alts cur lo hi m l r : lit_to_rune l = Some hi -> (hi <? lo) = false ->
  parse_tokens regs stk alts (Chr lo :: cur) ((CMinus, m) :: (CChar, l) :: r) = parse_tokens regs stk alts (Rng lo hi :: cur) r.
Proof. intros H1 H2. cbn [parse_tokens]. rewrite H1, H2. reflexivity. Qed.

Lemma step_ref stk alts cur l n r : index_of l regs = Some n ->
  parse_tokens regs stk alts cur ((CRef, l) :: r) = parse_tokens regs stk alts (Ref n :: cur) r.
Proof. intros H. cbn [parse_tokens]. rewrite H. reflexivity. Qed.

Lemma step_open stk alts cur k l r :
  parse_tokens regs stk alts cur ((COpen k, l) :: r) = parse_tokens regs ((k, alts, cur) :: stk) [] [] r.
Proof. reflexivity. Qed.

Lemma step_bar stk alts cur l r : cur <> [] ->
  parse_tokens regs stk alts cur ((CBar, l) :: r) = parse_tokens regs stk (rev cur :: alts) [] r.
Proof. intros H. destruct cur; [congruence|]. reflexivity. Qed.

Lemma step_close stk alts cur k alts' cur' l r : cur <> [] ->
  parse_tokens regs ((k, alts', cur') :: stk) alts cur ((CClose k, l) :: r)
  = parse_tokens regs stk alts' (mk_group k (close_level alts cur) :: cur') r.
Proof. intros H. destruct cur; [congruence|]. cbn [parse_tokens]. destruct k; reflexivity. Qed.

Lemma step_end alts cur : cur <> [] -> parse_tokens regs [] alts cur [] = Some (close_level alts cur).
Proof. intros H. destruct cur; [congruence|]. reflexivity. Qed.

Lemma rev_nonnil {A} (l : list A) : l <> [] -> rev l <> [].
Proof. destruct l; [congruence|]. simpl. intros _ H. apply app_eq_nil in H. destruct H; discriminate. Qed.

Lemma nonempty_nonnil {A} (l : list A) : nonempty l = true -> l <> [].
Proof. destruct l; [discriminate|congruence]. Qed.

Lemma wf_alt_inv a : wf_alt a = true -> a <> [] /\ forallb wf_term a = true.
Proof. intros H. apply andb_prop in H as [Hne H]. split; [apply nonempty_nonnil, Hne | exact H]. Qed.

Definition term_rt (t : term) : Prop :=
  wf_term t = true -> forall stk alts cur rest,
    parse_tokens regs stk alts cur (print_term t ++ rest) = parse_tokens regs stk alts (t :: cur) rest.

Lemma alt_rt a : Forall term_rt a -> forallb wf_term a = true -> forall stk alts cur rest,
  parse_tokens regs stk alts cur (print_alt a ++ rest) = parse_tokens regs stk alts (rev a ++ cur) rest.
Proof.
  induction 1 as [|t a Ht Ha IH]; intros Hw stk alts cur rest; [reflexivity|].
  simpl in Hw. apply andb_prop in Hw as [Hwt Hwa].
  unfold print_alt in *. cbn [flat_map]. rewrite <- app_assoc, (Ht Hwt), (IH Hwa).
  cbn [rev]. rewrite <- app_assoc. reflexivity.
Qed.

Lemma alts_rt r : Forall (Forall term_rt) r -> forallb wf_alt r = true -> forall alts cur, cur <> [] ->
  exists alts' cur', cur' <> [] /\ close_level alts' cur' = close_level alts cur ++ r /\
    forall stk rest, parse_tokens regs stk alts cur (flat_map (fun b => t_bar :: print_alt b) r ++ rest)
                     = parse_tokens regs stk alts' cur' rest.
Proof.
  induction 1 as [|b r Hb Hr IH]; intros Hw alts cur Hc.
  - exists alts, cur. rewrite app_nil_r. auto.
  - simpl in Hw. apply andb_prop in Hw as [Hwb Hwr]. apply wf_alt_inv in Hwb as [Hne Hwb].
    destruct (IH Hwr (rev cur :: alts) (rev b) (rev_nonnil _ Hne)) as (alts' & cur' & Hc' & E & P).
    exists alts', cur'. split; [exact Hc'|]. split.
    + rewrite E. unfold close_level. cbn [rev]. rewrite rev_involutive, <- app_assoc. reflexivity.
    + intros stk rest. cbn [flat_map app]. unfold t_bar at 1.
      rewrite (step_bar _ _ _ _ _ Hc), <- app_assoc, (alt_rt b Hb Hwb), app_nil_r. apply P.
Qed.

Lemma pattern_rt p : Forall (Forall term_rt) p -> wf_pattern p = true -> forall stk rest,
  exists alts cur, cur <> [] /\ close_level alts cur = p /\
    parse_tokens regs stk [] [] (print_pattern p ++ rest) = parse_tokens regs stk alts cur rest.
Proof.
  intros HF Hw stk rest. apply andb_prop in Hw as [Hne Hw].
  destruct p as [|a r]; [discriminate|]. inversion_clear HF as [|? ? Ha Hr].
  simpl in Hw. apply andb_prop in Hw as [Hwa Hwr]. apply wf_alt_inv in Hwa as [Hnea Hwa].
  destruct (alts_rt r Hr Hwr [] (rev a) (rev_nonnil _ Hnea)) as (alts & cur & Hc & E & P).
  exists alts, cur. split; [exact Hc|]. split.
  - rewrite E. unfold close_level. cbn [rev app]. rewrite rev_involutive. reflexivity.
  - unfold print_pattern. cbn [print_alts]. rewrite <- app_assoc, (alt_rt a Ha Hwa), app_nil_r. apply P.
Qed.

Lemma group_rt k p : Forall (Forall term_rt) p -> wf_pattern p = true -> forall stk alts cur rest,
  parse_tokens regs stk alts cur ((t_open k :: print_pattern p ++ [t_close k]) ++ rest)
  = parse_tokens regs stk alts (mk_group k p :: cur) rest.
Proof.
  intros HF Hw stk alts cur rest. cbn [app]. unfold t_open at 1. rewrite step_open, <- app_assoc.
  destruct (pattern_rt p HF Hw ((k, alts, cur) :: stk) ([t_close k] ++ rest)) as (alts' & cur' & Hc & <- & ->).
  apply step_close, Hc.
Qed.

Lemma index_of_nth n nm m : nth_error regs n = Some nm -> index_of nm regs = Some m -> Nat.eqb m n = true ->
  index_of (nth n regs []) regs = Some n.
Proof.
  intros H1 H2 H3. apply Nat.eqb_eq in H3. subst m. rewrite (nth_error_nth _ _ _ H1). exact H2.
Qed.

Lemma term_rt_all t : term_rt t.
Proof.
  induction t using term_ind'; unfold term_rt; intros Hw stk alts cur rest.
  - simpl in Hw. cbn [flat_map app print_term print_alts]. apply step_chr, chr_lit_ok, Hw.
  - simpl in Hw. apply andb_prop in Hw as [Hw Hle]. apply andb_prop in Hw as [Hlo Hhi].
    cbn [flat_map app print_term print_alts]. rewrite (step_chr _ _ _ _ _ _ (chr_lit_ok lo Hlo)).
    apply step_rng; [apply chr_lit_ok, Hhi | apply Z.ltb_ge, Z.leb_le, Hle].
  - reflexivity.
  - simpl in Hw. unfold ref_ok in Hw. cbn [flat_map app print_term print_alts].
    destruct (nth_error regs n) as [nm|] eqn:E1; [|discriminate].
    destruct (index_of nm regs) as [m|] eqn:E2; [|discriminate].
    apply step_ref. eapply index_of_nth; eauto.
  - (* [wf_term (Opt p)] repeats the body of [wf_pattern p] (the nested fixpoint cannot call it), so [Hw] fits *)
    exact (group_rt BOpt p H Hw stk alts cur rest).
  - exact (group_rt BRep p H Hw stk alts cur rest).
  - exact (group_rt BGrp p H Hw stk alts cur rest).
Qed.

Lemma all_rt (p : pattern) : Forall (Forall term_rt) p.
Proof. apply Forall_forall. intros a _. apply Forall_forall. intros t _. apply term_rt_all. Qed.

Theorem parse_print (p : pattern) : wf_pattern p = true -> parse_classes regs (print_pattern p) = Some p.
Proof.
  intros Hw. destruct (pattern_rt p (all_rt p) Hw [] []) as (alts & cur & Hc & <- & E).
  unfold parse_classes. rewrite app_nil_r in E. rewrite E. apply step_end, Hc.
Qed.

End Printer.

Print Assumptions parse_print.

(** type numbers of token.FRONTENDTokens as shipped *)
Definition type_of_class (c : lclass) : Z :=
  match c with
  | CDot => 8 | CChar => 9 | CMinus => 10 | CBar => 7 | CRef => 5
  | COpen BOpt => 11 | CClose BOpt => 12 | COpen BRep => 13 | CClose BRep => 14 | COpen BGrp => 15 | CClose BGrp => 16
  | COther => -1
  end.

Definition ftok_of_ltok (x : ltok) : ftok :=
  {| f_type := type_of_class (fst x); f_lit := snd x; f_off := 0; f_line := 0; f_col := 0 |}.

Definition print_pattern_ftok (regs : list name) (p : pattern) : list ftok := map ftok_of_ltok (print_pattern regs p).

Lemma ltok_of_ftok x : ltok_of shipped_ftypes shipped_ltypes (ftok_of_ltok x) = x.
Proof. destruct x as [c l]. destruct c as [| | | | |k|k|]; try destruct k; reflexivity. Qed.

Theorem parse_pattern_print regs (p : pattern) : wf_pattern regs p = true ->
  parse_pattern shipped_ftypes shipped_ltypes regs (print_pattern_ftok regs p) = Some p.
Proof.
  intros H. unfold parse_pattern, print_pattern_ftok. rewrite map_map.
  rewrite (map_ext _ (fun x => x) ltok_of_ftok), map_id. apply parse_print, H.
Qed.

Print Assumptions parse_pattern_print.

(** _d { _d | '_' } [ '.' ( 'a'-'f' | . ) ] | 'é'   with regs = [_l; _d] *)
Definition ex_regs : list name := [[95; 108]; [95; 100]].
Definition ex_pat : pattern :=
  [ [Ref 1; Rep [[Ref 1]; [Chr 95]]; Opt [[Chr 46; Grp [[Rng 97 102]; [Dot]]]]]; [Chr 233] ].

Example ex_pat_wf : wf_pattern ex_regs ex_pat = true.
Proof. vm_compute. reflexivity. Qed.

Example ex_pat_round_trip : parse_pattern shipped_ftypes shipped_ltypes ex_regs (print_pattern_ftok ex_regs ex_pat) = Some ex_pat.
Proof. apply parse_pattern_print, ex_pat_wf. Qed.

Example ex_pat_round_trip_eval : parse_classes ex_regs (print_pattern ex_regs ex_pat) = Some ex_pat.
Proof. vm_compute. reflexivity. Qed.

Example ex_pat_types : map (fun t => f_type t) (print_pattern_ftok ex_regs ex_pat)
  = [5; 13; 5; 7; 9; 14; 11; 9; 15; 9; 10; 9; 7; 8; 16; 12; 7; 9].
Proof. vm_compute. reflexivity. Qed.

(** what the grammar does not allow is refused: empty alternative, empty group, unbalanced or crossed brackets, a range
    whose bound is not a literal, a descending range, an undefined regular definition *)
Example refused :
  let ch c := (CChar, chr_lit c) in
  map (parse_classes ex_regs)
    [ []; [ch 97; t_bar]; [t_bar; ch 97]; [t_open BGrp; t_close BGrp]; [t_open BGrp; ch 97; t_close BOpt]; [t_open BGrp; ch 97];
      [ch 97; t_close BGrp]; [t_open BGrp; ch 97; t_close BGrp; (CMinus, [45]); ch 98]; [ch 97; (CMinus, [45])];
      [ch 97; (CMinus, [45]); ch 98; (CMinus, [45]); ch 99]; [ch 122; (CMinus, [45]); ch 97]; [(CRef, [95; 120])]; [(COther, [])] ]
  = repeat None 13.
Proof. vm_compute. reflexivity. Qed.

Print Assumptions ex_pat_round_trip.
