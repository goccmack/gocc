(** The rewriting touches only the three $ forms and maps them as stated (C03). *)
From Coq Require Import List ZArith Lia.
From Gocc Require Import Front.Sdt.
Import ListNotations.
Open Scope Z_scope.

Lemma span_digits_app l : let '(d, r) := span_digits l in l = d ++ r /\ Forall (fun b => is_digit b = true) d /\
  match r with b :: _ => is_digit b = false | [] => True end.
Proof.
  induction l as [|b t IH]; simpl; [repeat split; constructor|].
  destruct (is_digit b) eqn:E.
  - destruct (span_digits t) as [d r]. destruct IH as (-> & Hd & Hr). repeat split; auto.
  - repeat split; auto.
Qed.

Lemma span_digits_length l : (length (snd (span_digits l)) <= length l)%nat.
Proof.
  pose proof (span_digits_app l) as H. destruct (span_digits l) as [d r]. destruct H as (-> & _). simpl.
  rewrite app_length. lia.
Qed.

Lemma strip_prefix_length p l r : strip_prefix p l = Some r -> (length r <= length l)%nat.
Proof.
  revert l. induction p as [|a p IH]; intros l H; simpl in H.
  - inversion H; lia.
  - destruct l as [|b l]; [discriminate|]. destruct (a =? b); [|discriminate]. apply IH in H. simpl. lia.
Qed.

Lemma case_T {A} (P : A -> Prop) (b : Z) (x y : A) :
  P x -> P y -> P (match b with 84 => x | _ => y end).
Proof.
  intros Hx Hy. destruct b as [|p|p]; try exact Hy. repeat (destruct p as [p|p|]; try exact Hy). exact Hx.
Qed.

Lemma match_ref_shrinks t rep r : match_ref t = Some (rep, r) -> (length r <= length t)%nat.
Proof.
  unfold match_ref. pose proof (span_digits_length t) as H1.
  destruct (span_digits t) as [[|d ds] r0]; [|intros [= _ <-]; exact H1].
  assert (HC : match strip_prefix s_context t with Some r => Some ([67], r) | None => None end
               = Some (rep, r) -> (length r <= length t)%nat).
  { destruct (strip_prefix s_context t) eqn:Es; [|discriminate].
    intros [= _ <-]. exact (strip_prefix_length _ _ _ Es). }
  destruct t as [|b t']; [exact HC|].
  refine (case_T (fun o => o = Some (rep, r) -> (length r <= length (b :: t'))%nat) b _ _ _ HC).
  pose proof (span_digits_length t') as H2.
  destruct (span_digits t') as [[|d ds] r1]; [discriminate|]. intros [= _ <-]. cbn [snd length] in *. lia.
Qed.

Lemma rewrite_fuel : forall f1 f2 l, (length l <= f1)%nat -> (length l <= f2)%nat -> rewrite f1 l = rewrite f2 l.
Proof.
  induction f1 as [|f1 IH]; intros f2 l H1 H2.
  - destruct l; [|simpl in H1; lia]. destruct f2; reflexivity.
  - destruct f2 as [|f2]; [destruct l; [reflexivity|simpl in H2; lia]|].
    destruct l as [|b t]; [reflexivity|]. simpl in H1, H2. cbn [rewrite].
    assert (Hgen : forall x, (length x <= length t)%nat -> rewrite f1 x = rewrite f2 x) by (intros; apply IH; lia).
    (* the recursive calls agree in every branch, whatever [b] is *)
    rewrite (Hgen t (Nat.le_refl _)). destruct (match_ref t) as [[rep r]|] eqn:Em; [|reflexivity].
    rewrite (Hgen r (match_ref_shrinks _ _ _ Em)). reflexivity.
Qed.

Definition rw (l : list Z) : list Z := rewrite (length l) l.

Lemma rw_cons_other b t : b <> 36 -> rw (b :: t) = b :: rw t.
Proof.
  intros Hb. unfold rw. cbn [length rewrite].
  destruct b as [|p|p]; try reflexivity.
  repeat (destruct p as [p|p|]; try reflexivity). congruence.
Qed.

Theorem rw_no_dollar l : ~ In 36 l -> rw l = l.
Proof.
  induction l as [|b t IH]; intros H; [reflexivity|].
  rewrite rw_cons_other by (intros ->; apply H; left; reflexivity).
  rewrite IH; [reflexivity|]. intros Hin; apply H; right; exact Hin.
Qed.

Lemma rw_dollar t : rw (36 :: t) =
  match match_ref t with Some (rep, r) => rep ++ rw r | None => 36 :: rw t end.
Proof.
  unfold rw. cbn [length rewrite]. destruct (match_ref t) as [[rep r]|] eqn:E.
  - f_equal. apply rewrite_fuel; [apply (match_ref_shrinks _ _ _ E)|lia].
  - reflexivity.
Qed.

Lemma span_digits_exact d rest : Forall (fun b => is_digit b = true) d ->
  match rest with b :: _ => is_digit b = false | [] => True end -> span_digits (d ++ rest) = (d, rest).
Proof.
  intros Hd Hr. induction Hd as [|b d Hb Hd IH]; simpl.
  - destruct rest as [|b t]; [reflexivity|]. simpl. rewrite Hr. reflexivity.
  - rewrite Hb, IH. reflexivity.
Qed.

(** $i -> X[i]  (i = a maximal non-empty digit string) *)
Theorem rw_attr d ds rest : Forall (fun b => is_digit b = true) (d :: ds) ->
  match rest with b :: _ => is_digit b = false | [] => True end ->
  rw (36 :: (d :: ds) ++ rest) = s_x_open ++ (d :: ds) ++ s_close ++ rw rest.
Proof.
  intros Hd Hr. rewrite rw_dollar. unfold match_ref. rewrite (span_digits_exact (d :: ds) rest Hd Hr).
  rewrite <- ?app_assoc. reflexivity.
Qed.

(** $Ti -> X[i].( *token.Token) *)
Theorem rw_token d ds rest : Forall (fun b => is_digit b = true) (d :: ds) ->
  match rest with b :: _ => is_digit b = false | [] => True end ->
  rw (36 :: 84 :: (d :: ds) ++ rest) = s_x_open ++ (d :: ds) ++ s_tok ++ rw rest.
Proof.
  intros Hd Hr. rewrite rw_dollar. unfold match_ref.
  assert (H84 : forall x, span_digits (84 :: x) = ([], 84 :: x)) by (intros; reflexivity).
  rewrite H84. rewrite (span_digits_exact (d :: ds) rest Hd Hr). rewrite <- ?app_assoc. reflexivity.
Qed.

(** $Context -> C *)
Theorem rw_context rest : rw (36 :: s_context ++ rest) = 67 :: rw rest.
Proof. rewrite rw_dollar. reflexivity. Qed.

(** [<< f($0, $T12, $Context) >>] gives [f(X[0], X[12].( *token.Token), C)] *)
Example sdt_example :
  sdt_val [60;60;32;102;40;36;48;44;32;36;84;49;50;44;32;36;67;111;110;116;101;120;116;41;32;62;62]
  = [102;40;88;91;48;93;44;32;88;91;49;50;93;46;40;42;116;111;107;101;110;46;84;111;107;101;110;41;44;32;67;41].
Proof. vm_compute. reflexivity. Qed.
