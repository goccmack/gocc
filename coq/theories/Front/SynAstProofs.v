(** Proofs about Front/SynAst.v (the generator's numeric input computed from the token list of the grammar file): the
    look-ahead order is the permutation of the terminal numbers sorted by the bytes of their names, the symbol numbers of
    every production are in range, production 0 is  S' -> (first declared nonterminal).  Of [Gen.gen_wf] only some clauses
    are proved: see the end of the file. *)
From Coq Require Import List ZArith Bool Arith Lia Permutation Sorted.
From Gocc Require Import LR.Parse LR.Validate LR.Gen Front.FScan Front.Sem Front.TokMap Front.TokMapProofs Front.SynAst.
From Gocc Require Front.SemProofs Front.Perm Front.PermProofs.
Import ListNotations.
Local Open Scope nat_scope.

(** [SynAst.isort] is convertible to [Perm.isort], and [SynAst.name_leb] computes the same order as [Perm.lex_leb]
    ([name_leb_lex]): their properties are those proved in PermProofs.v. *)
Lemma isort_perm : forall {A} (le : A -> A -> bool) l, Permutation (isort le l) l.
Proof. intros A le l. exact (PermProofs.isort_perm A le l). Qed.

Lemma isort_sorted : forall {A} (le : A -> A -> bool), (forall a b, le a b = true \/ le b a = true) ->
  forall l, Sorted (fun a b => le a b = true) (isort le l).
Proof. intros A le. exact (PermProofs.isort_sorted A le). Qed.

Lemma name_leb_lex : forall a b, name_leb a b = Perm.lex_leb a b.
Proof.
  induction a as [|x a IH]; intros [|y b]; try reflexivity.
  rewrite PermProofs.lex_leb_cons. simpl. unfold Z.ltb. rewrite (Z.compare_antisym x y), IH.
  destruct (x ?= y)%Z; reflexivity.
Qed.

Lemma name_leb_total : forall a b, name_leb a b = true \/ name_leb b a = true.
Proof. intros a b. rewrite !name_leb_lex. apply PermProofs.lex_leb_total. Qed.

Lemma name_leb_refl : forall a, name_leb a a = true.
Proof. intros a. destruct (name_leb_total a a); assumption. Qed.

Lemma name_leb_trans : forall a b c, name_leb a b = true -> name_leb b c = true -> name_leb a c = true.
Proof. intros a b c. rewrite !name_leb_lex. apply PermProofs.lex_leb_trans. Qed.

Lemma name_leb_antisym : forall a b, name_leb a b = true -> name_leb b a = true -> a = b.
Proof. intros a b. rewrite !name_leb_lex. apply PermProofs.lex_leb_antisym. Qed.

(** LexPart.TokenIds() *)
Theorem sort_names_perm : forall l, Permutation (sort_names l) l.
Proof. intros. apply isort_perm. Qed.

Theorem sort_names_sorted : forall l, Sorted (fun a b => name_leb a b = true) (sort_names l).
Proof. intros. apply (isort_sorted name_leb name_leb_total). Qed.

Lemma number_from_fst : forall {A} (l : list A) k, map fst (number_from k l) = seq k (length l).
Proof. induction l as [|x r IH]; intros k; simpl; [reflexivity|]. rewrite IH. reflexivity. Qed.

Lemma number_from_snd : forall (names : list name) k p,
  In p (number_from k names) -> snd p = nth (fst p - k) names [] /\ k <= fst p.
Proof.
  induction names as [|x r IH]; intros k p H; simpl in H; [contradiction|].
  destruct H as [H|H].
  - subst p. simpl. rewrite Nat.sub_diag. split; [reflexivity | lia].
  - apply IH in H. destruct H as [H1 H2]. split; [|lia].
    rewrite H1. replace (fst p - k) with (S (fst p - S k)) by lia. reflexivity.
Qed.

Theorem la_of_perm : forall names, Permutation (la_of names) (seq 0 (length names)).
Proof.
  intros names. unfold la_of. rewrite <- (number_from_fst names 0).
  apply Permutation_map. apply isort_perm.
Qed.

Definition name_at (names : list name) (i : nat) : name := nth i names [].

Lemma sorted_map_fst : forall names (l : list (nat * name)),
  (forall p, In p l -> snd p = name_at names (fst p)) ->
  Sorted (fun a b : nat * name => name_leb (snd a) (snd b) = true) l ->
  Sorted (fun i j => name_leb (name_at names i) (name_at names j) = true) (map fst l).
Proof.
  induction l as [|a l IH]; intros Hp Hs; simpl; [constructor|].
  inversion Hs as [|? ? Hs' Hh]; subst. constructor.
  - apply IH; [intros; apply Hp; right; assumption | exact Hs'].
  - destruct l as [|p l']; simpl; constructor.
    inversion Hh as [|? ? Hr]; subst.
    rewrite <- (Hp a), <- (Hp p) by (simpl; auto). exact Hr.
Qed.

Theorem la_of_sorted : forall names,
  Sorted (fun i j => name_leb (name_at names i) (name_at names j) = true) (la_of names).
Proof.
  intros names. unfold la_of. apply sorted_map_fst.
  - intros p Hp. apply (Permutation_in _ (isort_perm _ _)) in Hp.
    apply number_from_snd in Hp. destruct Hp as [H _]. rewrite Nat.sub_0_r in H. exact H.
  - apply isort_sorted. intros a b. apply name_leb_total.
Qed.

Theorem la_of_strongly_sorted : forall names,
  StronglySorted (fun i j => name_leb (name_at names i) (name_at names j) = true) (la_of names).
Proof.
  intros names. apply Sorted_StronglySorted; [|apply la_of_sorted].
  intros i j k. apply name_leb_trans.
Qed.

Lemma mem_nat_In : forall a l, mem_nat a l = true <-> In a l.
Proof.
  intros a l. unfold mem_nat. rewrite existsb_exists. split.
  - intros [x [Hx E]]. apply Nat.eqb_eq in E. subst. exact Hx.
  - intros H. exists a. split; [exact H | apply Nat.eqb_refl].
Qed.

(** the clause of [gen_wf] about [la_order] *)
Lemma la_of_covers : forall names, forallb (fun a => mem_nat a (la_of names)) (seq 0 (length names)) = true.
Proof.
  intros names. apply forallb_forall. intros a Ha. apply mem_nat_In.
  apply (Permutation_in _ (Permutation_sym (la_of_perm names))). exact Ha.
Qed.

Lemma index_of_lt : forall s l i, index_of s l = Some i -> i < length l.
Proof.
  intros s l. induction l as [|x r IH]; simpl; intros i H; [discriminate|].
  destruct (name_eqb s x); [inversion H; lia|].
  destruct (index_of s r) as [j|]; simpl in H; [|discriminate].
  inversion H. specialize (IH _ eq_refl). lia.
Qed.

Lemma index_of_nth : forall s l i, index_of s l = Some i -> nth_error l i = Some s.
Proof.
  intros s l. induction l as [|x r IH]; simpl; intros i H; [discriminate|].
  destruct (name_eqb s x) eqn:E.
  - inversion H; subst. apply SemProofs.name_eqb_eq in E. subst. reflexivity.
  - destruct (index_of s r) as [j|]; simpl in H; [|discriminate].
    inversion H; subst. simpl. apply IH. reflexivity.
Qed.

Lemma index_of_In : forall s l, In s l -> exists i, index_of s l = Some i.
Proof.
  intros s l. induction l as [|x r IH]; simpl; intros H; [contradiction|].
  destruct (name_eqb s x) eqn:E; [eexists; reflexivity|].
  destruct H as [H|H]; [subst; rewrite SemProofs.name_eqb_refl in E; discriminate|].
  destruct (IH H) as [i Hi]. rewrite Hi. eexists; reflexivity.
Qed.

Lemma all_some_cons : forall {A} (x : option A) l r,
  all_some (x :: l) = Some r -> exists y r', x = Some y /\ all_some l = Some r' /\ r = y :: r'.
Proof.
  intros A [y|] l r; simpl; [|discriminate]. destruct (all_some l) as [r'|]; [|discriminate].
  intros [= <-]. now exists y, r'.
Qed.

Lemma all_some_Forall : forall {A B} (f : A -> option B) (P : B -> Prop),
  (forall x y, f x = Some y -> P y) -> forall l r, all_some (map f l) = Some r -> Forall P r.
Proof.
  intros A B f P H l. induction l as [|x t IH]; intros r E.
  - injection E as <-. constructor.
  - apply all_some_cons in E as (y & r' & Ey & Er & ->). constructor; eauto.
Qed.

Definition sym_ok (nn ntm : nat) (X : sym) : Prop :=
  match X with T a => a < ntm | NT n => n < nn end.

Lemma resolve_ok : forall nts terms s X,
  resolve nts terms s = Some X -> sym_ok (length nts) (length terms) X.
Proof.
  intros nts terms s X. unfold resolve.
  destruct (index_of s nts) eqn:E1.
  - intros H; inversion H; subst; simpl. eapply index_of_lt; eassumption.
  - destruct (index_of s terms) eqn:E2; [|discriminate].
    intros H; inversion H; subst; simpl. eapply index_of_lt; eassumption.
Qed.

Lemma body_of_ok : forall nts terms b r,
  body_of nts terms b = Some r -> Forall (sym_ok (length nts) (length terms)) r.
Proof.
  intros nts terms b r. unfold body_of.
  destruct b as [|s b']; [intros H; inversion H; constructor|].
  destruct (name_eqb s n_empty); [intros H; inversion H; constructor|].
  apply all_some_Forall. intros x. apply resolve_ok.
Qed.

Definition prod_ok (nn ntm : nat) (pr : prod) : Prop :=
  lhs pr < nn /\ Forall (sym_ok nn ntm) (rhs pr).

Lemma prod_of_ok : forall nts terms p pr,
  prod_of nts terms p = Some pr -> prod_ok (length nts) (length terms) pr.
Proof.
  intros nts terms p pr. unfold prod_of.
  destruct (index_of (fst p) nts) eqn:E1; [|discriminate].
  destruct (body_of nts terms (snd p)) eqn:E2; [|discriminate].
  intros H; inversion H; subst; simpl. split; simpl.
  - eapply index_of_lt; eassumption.
  - eapply body_of_ok; eassumption.
Qed.

Lemma gen_input_inv : forall ft sdt toks gi, gen_input_of_tokens_ft ft sdt toks = Some gi ->
  let prods := map snames (aug_alts ft toks) in
  let nts := nts_of prods in
  let terms := tm_terminals prods (lex_ids_sorted ft toks) in
  aug_alts ft toks <> [] /\
  exists g, all_some (map (prod_of nts terms) prods) = Some g /\
    gi = {| gi_g := g; gi_nn := length nts; gi_ntm := length terms;
            gi_symbols := filter_some (resolve nts terms) (tm_typemap prods (lex_ids_sorted ft toks));
            gi_la := la_of terms; gi_pacts := false :: prod_acts ft sdt toks;
            gi_terr := match index_of n_error terms with Some i => i | None => 0 end;
            gi_tnames := terms; gi_nnames := nts |}.
Proof.
  intros ft sdt toks gi. unfold gen_input_of_tokens_ft.
  destruct (aug_alts ft toks) as [|a0 aug]; [discriminate|]. cbv zeta.
  destruct (all_some _) as [g|]; [|discriminate]. intros [= <-]. split; [discriminate|]. exists g. split; reflexivity.
Qed.

Theorem gen_input_bounds : forall ft sdt toks gi,
  gen_input_of_tokens_ft ft sdt toks = Some gi ->
  Forall (prod_ok (gi_nn gi) (gi_ntm gi)) (gi_g gi).
Proof.
  intros ft sdt toks gi H. destruct (gen_input_inv _ _ _ _ H) as (_ & g & Hg & ->).
  exact (all_some_Forall _ _ (prod_of_ok _ _) _ _ Hg).
Qed.

Corollary gen_input_bounds_shipped : forall toks gi,
  gen_input_of_tokens toks = Some gi -> Forall (prod_ok (gi_nn gi) (gi_ntm gi)) (gi_g gi).
Proof. intros toks gi. apply gen_input_bounds. Qed.

Theorem gi_la_perm : forall ft sdt toks gi,
  gen_input_of_tokens_ft ft sdt toks = Some gi -> Permutation (gi_la gi) (seq 0 (gi_ntm gi)).
Proof.
  intros ft sdt toks gi H. destruct (gen_input_inv _ _ _ _ H) as (_ & g & _ & ->). apply la_of_perm.
Qed.

Theorem gi_la_sorted : forall ft sdt toks gi,
  gen_input_of_tokens_ft ft sdt toks = Some gi ->
  StronglySorted (fun i j => name_leb (name_at (gi_tnames gi) i) (name_at (gi_tnames gi) j) = true) (gi_la gi).
Proof.
  intros ft sdt toks gi H. destruct (gen_input_inv _ _ _ _ H) as (_ & g & _ & ->). apply la_of_strongly_sorted.
Qed.

Print Assumptions la_of_perm.
Print Assumptions la_of_strongly_sorted.
Print Assumptions sort_names_sorted.
Print Assumptions gi_la_perm.
Print Assumptions gi_la_sorted.
Print Assumptions gen_input_bounds.

Lemma nts_of_cons : forall n b ps, exists t, nts_of ((n, b) :: ps) = n :: t.
Proof. intros n b ps. exact (add_all_prefix name name_eqb (map fst ps) [n]). Qed.

Lemma nts_of_In : forall ps n, In n (nts_of ps) <-> In n (map fst ps).
Proof.
  intros ps n. unfold nts_of. rewrite (add_all_In name name_eqb SemProofs.name_eqb_eq). simpl. split; [intros [[]|H]; exact H|auto].
Qed.

Lemma aug_alts_cons : forall ft toks, aug_alts ft toks <> [] ->
  exists h b rest, prod_alts ft toks = (h, b) :: rest /\ aug_alts ft toks = (n_Sprime, [(KProd, h)]) :: (h, b) :: rest.
Proof.
  intros ft toks. unfold aug_alts. destruct (prod_alts ft toks) as [|[h b] rest]; [contradiction|]. intros _. exists h, b, rest. auto.
Qed.

Lemma prod_of_start : forall t terms h i, name_eqb h n_empty = false -> index_of h (n_Sprime :: t) = Some i ->
  prod_of (n_Sprime :: t) terms (n_Sprime, [h]) = Some {| lhs := 0; rhs := [NT i] |}.
Proof.
  intros t terms h i Hne Hi. unfold prod_of, body_of, resolve. cbn [fst snd map]. rewrite Hne, Hi. reflexivity.
Qed.

Lemma prod0_start : forall h ps terms g,
  let nts := nts_of ((n_Sprime, [h]) :: ps) in
  all_some (map (prod_of nts terms) ((n_Sprime, [h]) :: ps)) = Some g -> In h (map fst ps) ->
  nth_error nts 0 = Some n_Sprime /\
  (name_eqb h n_empty = false -> exists i g', g = {| lhs := 0; rhs := [NT i] |} :: g' /\ nth_error nts i = Some h).
Proof.
  intros h ps terms g nts Hg Hh.
  assert (Hin : In h nts) by (apply nts_of_In; right; exact Hh).
  destruct (nts_of_cons n_Sprime [h] ps) as [t Hn]. unfold nts in *. clear nts. rewrite Hn in *.
  split; [reflexivity|]. intro Hne. destruct (index_of_In _ _ Hin) as [i Hi].
  apply all_some_cons in Hg as (y & g' & Hx & _ & ->). exists i, g'.
  rewrite (prod_of_start _ _ _ _ Hne Hi) in Hx. injection Hx as <-. split; [reflexivity|apply index_of_nth; exact Hi].
Qed.

(** a head spelled like the keyword empty would make the body of production 0 empty: excluded by hypothesis (the scanner
    gives the type prodId only to identifiers with an upper-case initial) *)
Theorem gen_input_prod0 : forall ft sdt toks gi,
  gen_input_of_tokens_ft ft sdt toks = Some gi ->
  exists h b rest,
    prod_alts ft toks = (h, b) :: rest /\
    nth_error (gi_nnames gi) 0 = Some n_Sprime /\
    (name_eqb h n_empty = false ->
     exists i g', gi_g gi = {| lhs := 0; rhs := [NT i] |} :: g' /\ nth_error (gi_nnames gi) i = Some h).
Proof.
  intros ft sdt toks gi H. destruct (gen_input_inv _ _ _ _ H) as (Ha & g & Hg & ->). cbn [gi_g gi_nnames].
  destruct (aug_alts_cons _ _ Ha) as (h & b & rest & Ep & Ea). exists h, b, rest. split; [exact Ep|].
  rewrite Ea in Hg |- *. exact (prod0_start h (map snames ((h, b) :: rest)) _ g Hg (or_introl eq_refl)).
Qed.

Print Assumptions gen_input_prod0.

(** Clauses of [Gen.gen_wf] — PARTIAL.
    Proved here, for every token list:  the [la_order] clause ([gi_la_covers]),  [terr < ntm] as soon as there is a terminal
    ([gi_terr_lt]),  and, in Prop form, the bounds  lhs < nn / a < ntm / n < nn  ([gen_input_bounds]) and the shape of production 0
    ([gen_input_prod0]).
    NOT proved (unfinished): the theorem  gen_input_of_tokens toks = Some gi -> gen_wf ... = true.  It does not hold for arbitrary token
    lists: it needs what Sem.check_consistent and the scanner guarantee — INVALID and ␚ are neither heads nor body symbols (then
    terminals 0 and 1 are INVALID and ␚ by TokMapProofs.terminals_head, giving  1 < ntm  and  1 < a  for body terminals), S' occurs in no
    body, the first head is not spelled "empty" — plus the clause "every body symbol is in [symbols]" (body names are in typemap by
    TokMapProofs.typemap_In and [resolve] succeeds on them; not written down). *)
Theorem gi_la_covers : forall ft sdt toks gi,
  gen_input_of_tokens_ft ft sdt toks = Some gi ->
  forallb (fun a => mem_nat a (gi_la gi)) (seq 0 (gi_ntm gi)) = true.
Proof.
  intros ft sdt toks gi H. destruct (gen_input_inv _ _ _ _ H) as (_ & g & _ & ->). apply la_of_covers.
Qed.

Theorem gi_terr_lt : forall ft sdt toks gi,
  gen_input_of_tokens_ft ft sdt toks = Some gi -> 0 < gi_ntm gi -> gi_terr gi < gi_ntm gi.
Proof.
  intros ft sdt toks gi H. destruct (gen_input_inv _ _ _ _ H) as (_ & g & _ & ->). cbn [gi_terr gi_ntm]. intros Hpos.
  destruct (index_of n_error _) as [i|] eqn:Ei; [eapply index_of_lt; exact Ei | exact Hpos].
Qed.

Print Assumptions gi_la_covers.
Print Assumptions gi_terr_lt.
