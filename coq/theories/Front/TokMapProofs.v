(** Property C10, for every grammar (list of productions) and every list of lexical token ids: the terminal list has no
    duplicates, so that Type and Id are inverse bijections between the listed names and 0..n-1 (unknown names map to
    0 = INVALID, numbers >= n to "unknown"); a string is listed iff it is not a production name and is INVALID, ␚, a body
    symbol or a lexical token id.

    The list starts with INVALID, ␚ -- i.e. the generated constants token.INVALID = 0 and token.EOF = 1 denote the right
    terminals -- EXACTLY WHEN no production is named "INVALID" or "␚" ([terminals_head_iff]).  "␚" cannot be a production
    name in gocc's own grammar, but INVALID can (prod_id = upper-case letter followed by id characters):
    [ex_production_named_INVALID] shows the numbering that results, ␚ = 0, b = 1, a = 2: token.EOF (= 1) would be the
    terminal b and token.INVALID (= 0) would be ␚.  gocc refuses a grammar with such a production (ast.consistent,
    modelled in Sem.v), so the side condition holds of every grammar it generates code for.

    NewTokenMap fills IdMap with "last occurrence wins", [type_of] returns the first occurrence; the list has no
    duplicates, so they agree. *)
From Coq Require Import List Bool Arith Lia ZArith.
From Gocc Require Import Front.TokMap.
Import ListNotations.

Section Proofs.
Variable str : Type.
Variable eqb : str -> str -> bool.
Variables INVALID EOFSYM EMPTY : str.
Hypothesis eqb_eq : forall a b, eqb a b = true <-> a = b.

Notation mem := (mem str eqb).
Notation add := (add str eqb).
Notation add_all := (add_all str eqb).
Notation typemap := (typemap str eqb INVALID EOFSYM).
Notation is_terminal := (is_terminal str eqb EMPTY).
Notation terminals := (terminals str eqb INVALID EOFSYM EMPTY).
Notation type_of := (type_of str eqb).
Notation index_from := (index_from str eqb).
Notation id_of := (id_of str).

Lemma eqb_refl : forall a, eqb a a = true.
Proof. intros a. apply eqb_eq. reflexivity. Qed.

Lemma eqb_neq : forall a b, eqb a b = false <-> a <> b.
Proof.
  intros a b. split.
  - intros H E. apply eqb_eq in E. congruence.
  - intros H. destruct (eqb a b) eqn:E; [|reflexivity]. apply eqb_eq in E. contradiction.
Qed.

Definition str_eq_dec : forall a b : str, {a = b} + {a <> b}.
Proof.
  intros a b. destruct (eqb a b) eqn:E.
  - left. apply eqb_eq. exact E.
  - right. apply eqb_neq. exact E.
Defined.

Lemma mem_In : forall x l, mem x l = true <-> In x l.
Proof.
  intros x l. unfold TokMap.mem. rewrite existsb_exists. split.
  - intros [y [Hy E]]. apply eqb_eq in E. subst. exact Hy.
  - intros H. exists x. split; [exact H|apply eqb_refl].
Qed.

Lemma mem_false : forall x l, mem x l = false <-> ~ In x l.
Proof.
  intros x l. split.
  - intros H Hi. apply mem_In in Hi. congruence.
  - intros H. destruct (mem x l) eqn:E; [|reflexivity]. apply mem_In in E. contradiction.
Qed.

Lemma add_In : forall x l y, In y (add x l) <-> In y l \/ y = x.
Proof.
  intros x l y. unfold TokMap.add. destruct (mem x l) eqn:E.
  - apply mem_In in E. split; [auto|]. intros [H|H]; [exact H|subst; exact E].
  - rewrite in_app_iff. simpl. split; intros [H|H]; auto.
    destruct H as [H|[]]. auto.
Qed.

Lemma add_NoDup : forall x l, NoDup l -> NoDup (add x l).
Proof.
  intros x l H. unfold TokMap.add. destruct (mem x l) eqn:E; [exact H|].
  apply mem_false in E.
  apply NoDup_rev in H. rewrite <- (rev_involutive (l ++ [x])). apply NoDup_rev.
  rewrite rev_app_distr. simpl. constructor; [|exact H].
  intros Hi. apply in_rev in Hi. contradiction.
Qed.

Lemma add_prefix : forall x l, exists t, add x l = l ++ t.
Proof.
  intros x l. unfold TokMap.add. destruct (mem x l).
  - exists []. rewrite app_nil_r. reflexivity.
  - exists [x]. reflexivity.
Qed.

Lemma add_all_In : forall xs l y, In y (add_all xs l) <-> In y l \/ In y xs.
Proof.
  induction xs as [|x xs IH]; intros l y; simpl.
  - tauto.
  - unfold TokMap.add_all in *. simpl. rewrite IH, add_In.
    split; [intros [[H|H]|H]|intros [H|[H|H]]]; auto.
Qed.

Lemma add_all_NoDup : forall xs l, NoDup l -> NoDup (add_all xs l).
Proof.
  induction xs as [|x xs IH]; intros l H; simpl; [exact H|].
  unfold TokMap.add_all in *. simpl. apply IH. apply add_NoDup. exact H.
Qed.

Lemma add_all_prefix : forall xs l, exists t, add_all xs l = l ++ t.
Proof.
  induction xs as [|x xs IH]; intros l.
  - exists []. rewrite app_nil_r. reflexivity.
  - unfold TokMap.add_all in *. simpl.
    destruct (IH (add x l)) as [t Ht]. destruct (add_prefix x l) as [t' Ht'].
    exists (t' ++ t). rewrite Ht, Ht', app_assoc. reflexivity.
Qed.

Lemma typemap_NoDup : forall prods lex, NoDup (typemap prods lex).
Proof.
  intros. unfold TokMap.typemap. repeat apply add_all_NoDup. repeat apply add_NoDup. constructor.
Qed.

Lemma in_prod_syms : forall prods s,
  In s (flat_map (prod_syms str) prods) <-> In s (map fst prods) \/ In s (flat_map snd prods).
Proof.
  intros prods s. rewrite in_map_iff, !in_flat_map. split.
  - intros (p & Hp & [E|H]); [left|right]; exists p; auto.
  - intros [(p & E & Hp)|(p & Hp & H)]; exists p; (split; [exact Hp|]); [left; exact E|right; exact H].
Qed.

Lemma typemap_In : forall prods lex s,
  In s (typemap prods lex) <->
  In s (map fst prods) \/ s = INVALID \/ s = EOFSYM \/ In s (flat_map snd prods) \/ In s lex.
Proof.
  intros. unfold TokMap.typemap. rewrite !add_all_In, !add_In, in_prod_syms.
  split; [intros [[[[[]|H]|H]|[H|H]]|H]|intros [H|[H|[H|[H|H]]]]]; auto 6.
Qed.

Lemma typemap_head : forall prods lex,
  INVALID <> EOFSYM -> exists t, typemap prods lex = INVALID :: EOFSYM :: t.
Proof.
  intros prods lex Hne. unfold TokMap.typemap, TokMap.add. simpl.
  rewrite (proj2 (eqb_neq EOFSYM INVALID) (not_eq_sym Hne)). simpl.
  destruct (add_all_prefix (flat_map (prod_syms str) prods) [INVALID; EOFSYM]) as [t ->].
  destruct (add_all_prefix lex ([INVALID; EOFSYM] ++ t)) as [t' ->]. exists (t ++ t'). reflexivity.
Qed.

Lemma is_terminal_spec : forall prods s,
  is_terminal prods s = true <-> ~ In s (map fst prods) /\ s <> EMPTY.
Proof.
  intros. unfold TokMap.is_terminal. rewrite andb_true_iff, !negb_true_iff, eqb_neq, mem_false. reflexivity.
Qed.

Theorem terminals_NoDup : forall prods lex, NoDup (terminals prods lex).
Proof. intros. unfold TokMap.terminals. apply NoDup_filter. apply typemap_NoDup. Qed.

Theorem terminals_In : forall prods lex s,
  In s (terminals prods lex) <->
  ~ In s (map fst prods) /\ s <> EMPTY
  /\ (s = INVALID \/ s = EOFSYM \/ In s (flat_map snd prods) \/ In s lex).
Proof.
  intros. unfold TokMap.terminals. rewrite filter_In, typemap_In, is_terminal_spec.
  split; [intros [[H|H] [Hn He]]; [contradiction|auto]|intros (Hn & He & H); auto].
Qed.

Theorem terminals_count : forall prods lex s,
  In s (terminals prods lex) -> count_occ str_eq_dec (terminals prods lex) s = 1.
Proof. intros prods lex s. apply NoDup_count_occ'. apply terminals_NoDup. Qed.

Corollary body_terminal_once : forall prods lex s,
  In s (flat_map snd prods) -> ~ In s (map fst prods) -> s <> EMPTY ->
  count_occ str_eq_dec (terminals prods lex) s = 1.
Proof. intros. apply terminals_count. apply terminals_In. repeat split; auto. Qed.

Corollary lex_id_once : forall prods lex s,
  In s lex -> ~ In s (map fst prods) -> s <> EMPTY ->
  count_occ str_eq_dec (terminals prods lex) s = 1.
Proof. intros. apply terminals_count. apply terminals_In. repeat split; auto. Qed.

Theorem terminals_head : forall prods lex,
  INVALID <> EOFSYM -> INVALID <> EMPTY -> EOFSYM <> EMPTY ->
  ~ In INVALID (map fst prods) -> ~ In EOFSYM (map fst prods) ->
  exists t, terminals prods lex = INVALID :: EOFSYM :: t.
Proof.
  intros prods lex Hne He1 He2 H1 H2. unfold TokMap.terminals.
  destruct (typemap_head prods lex Hne) as [t Ht]. rewrite Ht. simpl.
  assert (T1 : is_terminal prods INVALID = true) by (apply is_terminal_spec; auto).
  assert (T2 : is_terminal prods EOFSYM = true) by (apply is_terminal_spec; auto).
  rewrite T1, T2. eexists. reflexivity.
Qed.

Theorem terminals_head_iff : forall prods lex,
  INVALID <> EOFSYM -> INVALID <> EMPTY -> EOFSYM <> EMPTY ->
  ((exists t, terminals prods lex = INVALID :: EOFSYM :: t) <->
   (~ In INVALID (map fst prods) /\ ~ In EOFSYM (map fst prods))).
Proof.
  intros prods lex Hne He1 He2. split.
  - intros [t Ht].
    assert (H1 : In INVALID (terminals prods lex)) by (rewrite Ht; left; reflexivity).
    assert (H2 : In EOFSYM (terminals prods lex)) by (rewrite Ht; right; left; reflexivity).
    apply terminals_In in H1. apply terminals_In in H2. split; [apply H1|apply H2].
  - intros [H1 H2]. apply terminals_head; assumption.
Qed.

Lemma index_from_in : forall l i s,
  In s l -> i <= index_from i l s /\ nth_error l (index_from i l s - i) = Some s.
Proof.
  induction l as [|x r IH]; intros i s H; [contradiction|].
  simpl. destruct (eqb s x) eqn:E.
  - apply eqb_eq in E. subst. rewrite Nat.sub_diag. split; [lia|reflexivity].
  - apply eqb_neq in E. destruct H as [H|H]; [congruence|].
    destruct (IH (S i) s H) as [H1 H2]. split; [lia|].
    replace (index_from (S i) r s - i) with (S (index_from (S i) r s - S i)) by lia.
    exact H2.
Qed.

Lemma index_from_notin : forall l i s, ~ In s l -> index_from i l s = 0.
Proof.
  induction l as [|x r IH]; intros i s H; [reflexivity|].
  simpl. destruct (eqb s x) eqn:E.
  - apply eqb_eq in E. subst. exfalso. apply H. left. reflexivity.
  - apply IH. intros Hi. apply H. right. exact Hi.
Qed.

Lemma index_from_nth : forall l i k s,
  NoDup l -> nth_error l k = Some s -> index_from i l s = i + k.
Proof.
  induction l as [|x r IH]; intros i k s ND H.
  - destruct k; discriminate.
  - inversion ND as [|? ? Hx ND']; subst. destruct k as [|k]; simpl in H |- *.
    + injection H as ->. rewrite eqb_refl. lia.
    + assert (Hs : In s r) by (eapply nth_error_In; exact H).
      assert (eqb s x = false) as ->.
      { apply eqb_neq. intros ->. contradiction. }
      rewrite (IH (S i) k s ND' H). lia.
Qed.

Theorem type_of_id_of : forall l i s,
  NoDup l -> id_of l i = Some s -> type_of l s = i.
Proof. intros l i s ND H. unfold TokMap.type_of. rewrite (index_from_nth l 0 i s ND H). lia. Qed.

Theorem id_of_type_of : forall l s, In s l -> id_of l (type_of l s) = Some s.
Proof.
  intros l s H. destruct (index_from_in l 0 s H) as [_ H2].
  rewrite Nat.sub_0_r in H2. exact H2.
Qed.

Theorem type_of_lt : forall l s, In s l -> type_of l s < length l.
Proof.
  intros l s H. apply nth_error_Some. pose proof (id_of_type_of l s H) as E.
  unfold TokMap.id_of in E. rewrite E. discriminate.
Qed.

Theorem type_of_unknown : forall l s, ~ In s l -> type_of l s = 0.
Proof. intros l s H. apply index_from_notin. exact H. Qed.

Theorem id_of_none : forall l i, id_of l i = None <-> length l <= i.
Proof. intros l i. apply nth_error_None. Qed.

Theorem id_of_some : forall l i, i < length l -> exists s, id_of l i = Some s /\ In s l.
Proof.
  intros l i H. destruct (nth_error l i) as [s|] eqn:E.
  - exists s. split; [exact E|]. eapply nth_error_In. exact E.
  - apply nth_error_None in E. lia.
Qed.

Theorem tokmap_bijection : forall prods lex,
  let tm := terminals prods lex in
  (forall i, i < length tm -> exists s, id_of tm i = Some s /\ In s tm /\ type_of tm s = i)
  /\ (forall s, In s tm -> type_of tm s < length tm /\ id_of tm (type_of tm s) = Some s)
  /\ (forall s, ~ In s tm -> type_of tm s = 0)
  /\ (forall i, length tm <= i -> id_of tm i = None).
Proof.
  intros prods lex tm. split; [|split; [|split]].
  - intros i Hi. destruct (id_of_some tm i Hi) as [s [H1 H2]]. exists s.
    split; [exact H1|]. split; [exact H2|].
    apply type_of_id_of; [apply terminals_NoDup|exact H1].
  - intros s H. split; [apply type_of_lt; exact H|apply id_of_type_of; exact H].
  - intros s H. apply type_of_unknown. exact H.
  - intros i H. apply id_of_none. exact H.
Qed.

(** the generated constants INVALID = 0 and EOF = 1 are right under the side condition *)
Theorem type_of_INVALID_EOF : forall prods lex,
  INVALID <> EOFSYM -> INVALID <> EMPTY -> EOFSYM <> EMPTY ->
  ~ In INVALID (map fst prods) -> ~ In EOFSYM (map fst prods) ->
  type_of (terminals prods lex) INVALID = 0 /\ type_of (terminals prods lex) EOFSYM = 1
  /\ id_of (terminals prods lex) 0 = Some INVALID /\ id_of (terminals prods lex) 1 = Some EOFSYM.
Proof.
  intros prods lex Hne He1 He2 H1 H2.
  destruct (terminals_head prods lex Hne He1 He2 H1 H2) as [t Ht].
  pose proof (terminals_NoDup prods lex) as ND. rewrite Ht in *.
  split; [|split; [|split]]; try reflexivity.
  - apply type_of_id_of; [exact ND|reflexivity].
  - apply type_of_id_of; [exact ND|reflexivity].
Qed.

End Proofs.

Lemma zstr_eqb_eq : forall a b, zstr_eqb a b = true <-> a = b.
Proof.
  induction a as [|x a IH]; intros [|y b]; simpl; split; intros H;
    try reflexivity; try discriminate.
  - apply andb_prop in H. destruct H as [H1 H2].
    apply Z.eqb_eq in H1. apply IH in H2. congruence.
  - injection H as -> ->. rewrite Z.eqb_refl. simpl. apply IH. reflexivity.
Qed.

Lemma INVALID_z_neq_EOF_z : INVALID_z <> EOF_z.
Proof. discriminate. Qed.

Local Open Scope Z_scope.
(** strings used below: a = [97], b = [98], x = [120], S = [83], T = [84], id = [105;100] *)

(** S : T b ;  T : a | x ;   lexical ids (sorted) a, b, id *)
Example ex_numbering :
  terminals_z [([83], [[84]; [98]]); ([84], [[97]]); ([84], [[120]])] [[97]; [98]; [105; 100]]
  = [INVALID_z; EOF_z; [98]; [97]; [120]; [105; 100]].
Proof. vm_compute. reflexivity. Qed.

Example ex_type_of :
  let tm := terminals_z [([83], [[84]; [98]]); ([84], [[97]]); ([84], [[120]])] [[97]; [98]; [105; 100]] in
  (type_of_z tm [120], type_of_z tm [83], type_of_z tm [122], id_of_z tm 2%nat, id_of_z tm 6%nat)
  = (4%nat, 0%nat, 0%nat, Some [98], None).
Proof. vm_compute. reflexivity. Qed.

(** A production named INVALID:   S : INVALID b ;  INVALID : a ;   lexical ids a, b.
    "INVALID" is a production name, hence not a terminal: ␚ gets number 0 (= the generated
    constant token.INVALID) and b gets number 1 (= token.EOF): typeMap = {"␚", "b", "a"}. *)
Example ex_production_named_INVALID :
  terminals_z [([83], [INVALID_z; [98]]); (INVALID_z, [[97]])] [[97]; [98]]
  = [EOF_z; [98]; [97]].
Proof. vm_compute. reflexivity. Qed.

Print Assumptions terminals_NoDup.
Print Assumptions terminals_In.
Print Assumptions terminals_count.
Print Assumptions terminals_head_iff.
Print Assumptions tokmap_bijection.
Print Assumptions type_of_INVALID_EOF.
Print Assumptions zstr_eqb_eq.
