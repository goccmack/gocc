(** The semantic front-end model tied to the parser model: when the front-end parser (Parse.parse on tables validated
    against the grammar [g]) accepts a token list, there is a parse tree of the WHOLE list whose definition nodes
    (productions  X : h ":" B ";") are exactly, in order, the definitions [Sem.defs] cuts out of the token list: same head
    token, and the body is the yield of B.  Nothing of the file lies outside the definitions the semantic checks see, and
    the checks see nothing that is not a definition of the tree.  Together with [SemProofs.sem_verdict_ok_iff] this gives
    the two directions between "[front_accepts] = true" and "the token list is a sentence whose definitions satisfy
    [sem_wf]": [front_accepts_sound] under the backward validator conditions, the gate and [cut_ok];
    [front_accepts_complete] under the forward validator conditions and fuel for the tree. *)
From Coq Require Import List Arith ZArith Lia Bool.
From Gocc Require Import LR.Parse LR.Validate LR.Trees LR.SoundGated LR.Complete Front.FScan Front.Sem Front.SemProofs.
Import ListNotations.
Local Open Scope nat_scope.

Fixpoint tagged (i : nat) (toks : list ftok) : list (nat * ftok) :=
  match toks with [] => [] | t :: r => (i, t) :: tagged (S i) r end.

Definition mk (x : nat * ftok) : token := {| ttype := Z.to_nat (f_type (snd x) + 1); tid := fst x |}.

Lemma to_ptoks_tagged toks : forall i, to_ptoks i toks = map mk (tagged i toks).
Proof. induction toks as [|t r IH]; intro i; simpl; [reflexivity|]. rewrite IH. reflexivity. Qed.

Lemma tagged_snd toks : forall i, map snd (tagged i toks) = toks.
Proof. induction toks as [|t r IH]; intro i; simpl; [reflexivity|]. rewrite IH. reflexivity. Qed.

Lemma tagged_nth toks : forall i k x, In (k, x) (tagged i toks) -> i <= k /\ nth_error toks (k - i) = Some x.
Proof.
  induction toks as [|t r IH]; intros i k x; simpl; [tauto|]. intros [E|H].
  - inversion E; subst. rewrite Nat.sub_diag. auto.
  - destruct (IH _ _ _ H) as [H1 H2]. split; [lia|]. replace (k - i) with (S (k - S i)) by lia. exact H2.
Qed.

Lemma to_ptoks_Forall (Q : ftok -> Prop) (P : nat -> Prop) :
  (forall t, Q t -> P (Z.to_nat (f_type t + 1))) ->
  forall toks i, Forall Q toks -> Forall (fun t => P (ttype t)) (to_ptoks i toks).
Proof.
  intros H toks. induction toks as [|t r IH]; intros i F; simpl; [constructor|].
  inversion F; subst. constructor; [apply H; assumption|apply IH; assumption].
Qed.

Section Top.
Variable ft : ftypes.

(** the definitions of the file, every token with its index *)
Definition tagged_defs (toks : list ftok) : list ((nat * ftok) * list (nat * ftok)) :=
  defs_gen (fun x => is_ty (ft_colon ft) (snd x)) (fun x => is_ty (ft_semi ft) (snd x)) (tagged 0 toks).

(** ... read on the file side: [Sem.defs] *)
Lemma defs_tagged toks : defs ft toks = map (pmap snd) (tagged_defs toks).
Proof.
  unfold defs, tagged_defs. rewrite <- (defs_gen_map snd), tagged_snd. reflexivity.
Qed.

Lemma tagged_defs_in toks h b :
  In (h, b) (tagged_defs toks) -> nth_error toks (fst h) = Some (snd h).
Proof.
  intro H. apply defs_gen_head_in in H. destruct h as [k x]. apply tagged_nth in H. simpl.
  rewrite Nat.sub_0_r in H. tauto.
Qed.

(** the parser's terminal numbers are the scanner's types shifted by one *)
Lemma shifted_type_eqb f c : (0 <= c)%Z -> Nat.eqb (Z.to_nat (f + 1)) (Z.to_nat (c + 1)) = (f =? c)%Z.
Proof.
  intro H. destruct (Z.eqb_spec f c) as [->|N]; [apply Nat.eqb_refl|]. apply Nat.eqb_neq. lia.
Qed.

(** ... read on the parser side *)
Lemma defs_ptoks toks : (0 <= ft_colon ft)%Z -> (0 <= ft_semi ft)%Z ->
  defs_gen (isc (Z.to_nat (ft_colon ft + 1))) (iss (Z.to_nat (ft_semi ft + 1))) (to_ptoks 0 toks)
  = map (pmap mk) (tagged_defs toks).
Proof.
  intros Hc Hs. rewrite to_ptoks_tagged, defs_gen_map. f_equal. apply defs_gen_ext; intros [k x]; unfold isc, iss, mk, is_ty; simpl;
    apply shifted_type_eqb; assumption.
Qed.

Lemma cut_ok_unit_rhs g colon semi sf pr X : cut_ok g colon semi sf = true ->
  In pr g -> rhs pr = [X] -> is_colon_sym colon X = false.
Proof.
  intros CO I E. unfold cut_ok in CO. apply andb_true_iff in CO. destruct CO as [_ CO].
  pose proof (proj1 (forallb_forall _ _) CO pr I) as C. cbv beta in C. rewrite E in C.
  apply orb_true_iff in C. destruct C as [C|C]; [|destruct X; discriminate].
  simpl in C. rewrite andb_true_r in C. apply negb_true_iff in C. exact C.
Qed.

Theorem front_cut_faithful : forall g tb an sf toks fuel,
  valid_backward g tb an = true ->
  t_gate tb = true -> forallb (fun r => negb (s_recover r)) (t_states tb) = true ->
  (0 <= ft_colon ft)%Z -> (0 <= ft_semi ft)%Z ->
  cut_ok g (Z.to_nat (ft_colon ft + 1)) (Z.to_nat (ft_semi ft + 1)) sf = true ->
  Forall (fun t => f_type t <> 0%Z) toks -> Forall (fun t => Z.to_nat (f_type t + 1) < nterms tb) toks ->
  parse_ok tb fuel toks = true ->
  exists t pr0 X0, nth_error g 0 = Some pr0 /\ rhs pr0 = [X0] /\ wt g X0 t (to_ptoks 0 toks) /\
    defs_tree g (Z.to_nat (ft_colon ft + 1)) t = map (pmap mk) (tagged_defs toks) /\
    defs ft toks = map (pmap snd) (tagged_defs toks).
Proof.
  intros g tb an sf toks fuel HV HG HN Hc Hs CO HI HR Hok. unfold parse_ok in Hok.
  destruct (r_out (parse tb (sem_node None) (to_ptoks 0 toks) fuel)) as [v| | |] eqn:E; try discriminate.
  assert (HI' : Forall (fun t => ttype t <> EOFT) (to_ptoks 0 toks)).
  { apply (to_ptoks_Forall (fun t => f_type t <> 0%Z) (fun n => n <> EOFT)); [|exact HI]. intros t Ht. unfold EOFT. lia. }
  pose proof (to_ptoks_Forall _ (fun n => n < nterms tb) (fun _ H => H) toks 0 HR) as HR'.
  destruct (parse_sound_gated g tb an (sem_node None) (to_ptoks 0 toks) HG HN fuel v HV HI' HR' E)
    as (t & pr0 & X0 & c & H0 & H1 & H2 & _).
  exists t, pr0, X0. split; [exact H0|]. split; [exact H1|]. split; [exact H2|]. split; [|apply defs_tagged].
  pose proof (cut_ok_unit_rhs _ _ _ _ _ _ CO (nth_error_In _ _ H0) H1) as NX.
  destruct (cut_is_definition_nodes g _ _ sf CO t X0 _ H2 NX) as (D & _ & _).
  rewrite <- D. apply defs_ptoks; assumption.
Qed.

(** the whole front-end model: accepted  =>  sentence of [g] (all of the token list) whose definitions are [sem_wf] *)
Theorem front_accepts_sound : forall g tb an sf toks fuel,
  valid_backward g tb an = true ->
  t_gate tb = true -> forallb (fun r => negb (s_recover r)) (t_states tb) = true ->
  (0 <= ft_colon ft)%Z -> (0 <= ft_semi ft)%Z ->
  cut_ok g (Z.to_nat (ft_colon ft + 1)) (Z.to_nat (ft_semi ft + 1)) sf = true ->
  Forall (fun t => f_type t <> 0%Z) toks -> Forall (fun t => Z.to_nat (f_type t + 1) < nterms tb) toks ->
  front_accepts ft tb fuel toks = true ->
  sem_wf ft toks /\
  exists t pr0 X0, nth_error g 0 = Some pr0 /\ rhs pr0 = [X0] /\ wt g X0 t (to_ptoks 0 toks) /\
    defs_tree g (Z.to_nat (ft_colon ft + 1)) t = map (pmap mk) (tagged_defs toks) /\
    defs ft toks = map (pmap snd) (tagged_defs toks).
Proof.
  intros g tb an sf toks fuel HV HG HN Hc Hs CO HI HR H. unfold front_accepts in H. apply andb_true_iff in H.
  destruct H as [H1 H2]. split.
  - apply sem_verdict_ok_iff. destruct (sem_verdict ft toks); [reflexivity|discriminate].
  - eapply front_cut_faithful; eauto.
Qed.

(** ... and conversely: a sentence whose definitions are [sem_wf] is accepted (given fuel for the tree) *)
Theorem front_accepts_complete : forall g tb an toks,
  valid_forward g tb an = true ->
  forall pr0 X0 t, nth_error g 0 = Some pr0 -> rhs pr0 = [X0] -> wt g X0 t (to_ptoks 0 toks) ->
  sem_wf ft toks ->
  forall fuel, size t + 1 <= fuel -> front_accepts ft tb fuel toks = true.
Proof.
  intros g tb an toks HV pr0 X0 t H0 H1 H2 W fuel Hf. unfold front_accepts, parse_ok.
  assert (Hs : forall i p kids, sem_node None i p kids <> None) by (intros; discriminate).
  destruct (lr_complete g tb an (sem_node None) (to_ptoks 0 toks) HV Hs pr0 X0 t H0 H1 H2 fuel Hf) as [v E].
  rewrite E. apply sem_verdict_ok_iff in W. rewrite W. reflexivity.
Qed.

End Top.
Print Assumptions front_cut_faithful.
Print Assumptions front_accepts_sound.
Print Assumptions front_accepts_complete.
