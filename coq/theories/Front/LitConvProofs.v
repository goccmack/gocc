(** gocc's rune-literal decoder (Front/LitConv.v) against the Go rune-literal specification
    (Front/GoLit.v): the decoder returns Go's value on every valid literal, every spelling of a
    code point is a valid literal denoting it, the uint32 arithmetic of the digit loop never
    wraps, and Base.Utf8 decodes what it encodes.
    The converse of [lit_to_rune_agrees] is false: see the [finding_*] examples at the end
    (the decoder returns a value, instead of panicking, on many byte strings that are not
    valid Go rune literals).
    Everything is symbolic; no enumeration of code points.  Numeric escapes go through
    [digits], the reading of a digit string that both the specification's positional sums
    and the decoder's loop compute. *)
(* ZifyBool: [lia] decides the boolean tests *)
From Coq Require Import List ZArith Lia Bool ZifyBool.
From Gocc Require Import Base.Utf8 Front.LitConv Front.GoLit.
Import ListNotations.
Open Scope Z_scope.

Lemma is_scalar_spec : forall c,
  is_scalar c = true <-> (0 <= c <= 1114111 /\ ~ (55296 <= c <= 57343)).
Proof. intro c. unfold is_scalar. lia. Qed.

(** Positional notation: the two leading terms of  M*(c/M) + m*((c/m) mod b) + ...  collapse. *)
Lemma horner : forall b c m M, 0 < b -> 0 < m -> M = m * b ->
  M * (c / M) + m * ((c / m) mod b) = m * (c / m).
Proof.
  intros b c m M Hb Hm ->. rewrite <- Z.div_div by lia.
  rewrite (Z.div_mod (c / m) b) at 3 by lia. ring.
Qed.

Lemma div_digit : forall c m b, 0 < m -> 0 <= c < m * b -> 0 <= c / m < b.
Proof. intros. split; [apply Z.div_pos | apply Z.div_lt_upper_bound]; lia. Qed.

Lemma in_rng_true : forall lo hi x, lo <= x <= hi -> in_rng lo hi x = true.
Proof. intros. unfold in_rng. lia. Qed.

Lemma decode1 : forall b t, b < 128 -> decode_rune (b :: t) = (b, 1%nat).
Proof. intros b t H. unfold decode_rune. apply Z.ltb_lt in H. rewrite H. reflexivity. Qed.

(** By payload digits; [r] in the range of its length class: no overlong form, no surrogate, at most 0x10FFFF. *)
Lemma decode2 : forall q d0 t r, r = 64 * q + d0 -> 0 <= d0 < 64 -> 128 <= r < 2048 ->
  decode_rune (192 + q :: 128 + d0 :: t) = (r, 2%nat).
Proof.
  intros q d0 t r -> H0 Hr. unfold decode_rune, cont.
  replace (192 + q <? 128) with false by lia.
  rewrite !in_rng_true by lia. f_equal. lia.
Qed.

Lemma decode3 : forall q d1 d0 t r, r = 4096 * q + 64 * d1 + d0 ->
  0 <= d1 < 64 -> 0 <= d0 < 64 -> 2048 <= r < 65536 -> ~ 55296 <= r <= 57343 ->
  decode_rune (224 + q :: 128 + d1 :: 128 + d0 :: t) = (r, 3%nat).
Proof.
  intros q d1 d0 t r -> H1 H0 Hr Hsur. unfold decode_rune, cont; cbv zeta.
  replace (224 + q <? 128) with false by lia.
  replace (in_rng 194 223 (224 + q)) with false by (unfold in_rng; lia).
  rewrite (in_rng_true 224 239), (in_rng_true 128 191) by lia.
  rewrite in_rng_true; [cbn [andb]; f_equal; lia|].
  destruct (Z.eqb_spec (224 + q) 224), (Z.eqb_spec (224 + q) 237); lia.
Qed.

Lemma decode4 : forall q d2 d1 d0 t r, r = 262144 * q + 4096 * d2 + 64 * d1 + d0 ->
  0 <= d2 < 64 -> 0 <= d1 < 64 -> 0 <= d0 < 64 -> 65536 <= r <= 1114111 ->
  decode_rune (240 + q :: 128 + d2 :: 128 + d1 :: 128 + d0 :: t) = (r, 4%nat).
Proof.
  intros q d2 d1 d0 t r -> H2 H1 H0 Hr. unfold decode_rune, cont; cbv zeta.
  replace (240 + q <? 128) with false by lia.
  replace (in_rng 194 223 (240 + q)) with false by (unfold in_rng; lia).
  replace (in_rng 224 239 (240 + q)) with false by (unfold in_rng; lia).
  rewrite (in_rng_true 240 244), !(in_rng_true 128 191) by lia.
  rewrite in_rng_true; [cbn [andb]; f_equal; lia|].
  destruct (Z.eqb_spec (240 + q) 240), (Z.eqb_spec (240 + q) 244); lia.
Qed.

Lemma decode_encode : forall c rest, is_scalar c = true ->
  decode_rune (encode_rune c ++ rest) = (c, length (encode_rune c)).
Proof.
  intros c rest H. apply is_scalar_spec in H. unfold encode_rune, in_rng.
  assert (D : forall m, 0 <= m mod 64 < 64) by (intro; apply Z.mod_pos_bound; lia).
  destruct (Z.ltb_spec c 0); [lia|].
  destruct (Z.ltb_spec c 128); [apply decode1; assumption|].
  destruct (Z.ltb_spec c 2048).
  { apply decode2; [apply Z.div_mod| |]; auto; lia. }
  replace ((55296 <=? c) && (c <=? 57343)) with false by lia.
  destruct (Z.ltb_spec c 65536).
  { apply decode3; auto; [|lia]. rewrite horner by lia. apply Z.div_mod. lia. }
  replace (c <=? 1114111) with true by lia.
  apply decode4; auto; [|lia]. rewrite !horner by lia. apply Z.div_mod. lia.
Qed.

Corollary decode_encode_exact : forall c, is_scalar c = true ->
  decode_rune (encode_rune c) = (c, length (encode_rune c)).
Proof.
  intros c H. rewrite <- (decode_encode c [] H), app_nil_r. reflexivity.
Qed.

(** [esc_loop] without the [u32] truncations. *)
Fixpoint esc_loop_nw (lit : list Z) (len : Z) (i : nat) (base x offset : Z) : option Z :=
  match i with
  | O => Some x
  | S i' =>
    if offset <? len - 1 then
      let '(ch, size) := decode_rune (skipn (Z.to_nat offset) lit) in
      let offset' := offset + Z.of_nat size in
      let d := digit_val ch in
      if d >=? base then None
      else esc_loop_nw lit len i' base (x * base + d) offset'
    else Some x
  end.

Lemma rng_spec : forall lo hi x, reflect (lo <= x <= hi) ((lo <=? x) && (x <=? hi)).
Proof. intros. apply iff_reflect. lia. Qed.

(* case distinction on the first range test of the goal *)
Ltac case_rng :=
  match goal with
  | |- context [(?lo <=? ?x) && (?x <=? ?hi)] => destruct (rng_spec lo hi x)
  end.

Lemma digit_val_range : forall ch, 0 <= digit_val ch <= 16.
Proof. intro ch. unfold digit_val. repeat (case_rng; [lia|]). lia. Qed.

Lemma hex_val_spec : forall b v, hex_val b = Some v ->
  0 <= b < 128 /\ digit_val b = v /\ 0 <= v < 16.
Proof.
  intros b v. unfold hex_val, digit_val.
  repeat (case_rng; [intros [= <-]; lia|]). discriminate.
Qed.

Lemma oct_val_spec : forall b v, oct_val b = Some v ->
  48 <= b <= 55 /\ digit_val b = v /\ 0 <= v < 8.
Proof.
  intros b v. unfold oct_val. case_rng; [intros [= <-]|discriminate].
  unfold digit_val. case_rng; lia.
Qed.

Lemma hex_val_hex_digit : forall v, 0 <= v < 16 -> hex_val (hex_digit v) = Some v.
Proof.
  intros v H. unfold hex_val, hex_digit. destruct (Z.ltb_spec v 10).
  - case_rng; [f_equal|]; lia.
  - do 2 (case_rng; [f_equal|]; try lia).
Qed.

Lemma oct_val_digit : forall v, 0 <= v < 8 -> oct_val (48 + v) = Some v.
Proof. intros v H. unfold oct_val. case_rng; [f_equal|]; lia. Qed.

Lemma u32_small : forall x, 0 <= x < 4294967296 -> u32 x = x.
Proof. intros. unfold u32. apply Z.mod_small. assumption. Qed.

(** [k] counts the rounds done: after k of at most 8 rounds, x < 16^k. *)
Lemma esc_loop_no_wrap_gen : forall lit len i base x off k,
  (i + k <= 8)%nat -> 0 <= base <= 16 -> 0 <= x < 16 ^ Z.of_nat k ->
  esc_loop lit len i base x off = esc_loop_nw lit len i base x off.
Proof.
  intros lit len i. induction i as [|i IH]; intros base x off k Hi Hb Hx; [reflexivity|].
  cbn [esc_loop esc_loop_nw].
  destruct (off <? len - 1); [|reflexivity].
  destruct (decode_rune (skipn (Z.to_nat off) lit)) as [ch size].
  pose proof (digit_val_range ch) as Hd.
  rewrite (u32_small (digit_val ch)) by lia.
  destruct (digit_val ch >=? base) eqn:E; [reflexivity|].
  assert (HP : 16 ^ Z.of_nat (S k) <= 16 ^ 8) by (apply Z.pow_le_mono_r; lia).
  rewrite Nat2Z.inj_succ, Z.pow_succ_r in HP by lia. change (16 ^ 8) with 4294967296 in HP.
  assert (Hm : 0 <= x * base <= x * 16)
    by (split; [apply Z.mul_nonneg_nonneg | apply Z.mul_le_mono_nonneg_l]; lia).
  rewrite u32_small by lia.
  apply (IH _ _ _ (S k)); [lia | lia | rewrite Nat2Z.inj_succ, Z.pow_succ_r by lia; lia].
Qed.

(** As used by escapeCharVal: i is one of 2,3,4,8, base 8 or 16, x starts at 0. *)
Theorem esc_loop_no_wrap : forall lit len i base off,
  (i <= 8)%nat -> 0 <= base <= 16 ->
  esc_loop lit len i base 0 off = esc_loop_nw lit len i base 0 off.
Proof. intros. apply (esc_loop_no_wrap_gen _ _ _ _ _ _ 0%nat); [lia | assumption | cbn; lia]. Qed.

Lemma esc_nw_step : forall lit len i base x off d rest,
  skipn (Z.to_nat off) lit = d :: rest ->
  (off <? len - 1) = true ->
  0 <= d < 128 -> digit_val d < base ->
  esc_loop_nw lit len (S i) base x off
  = esc_loop_nw lit len i base (x * base + digit_val d) (off + 1).
Proof.
  intros lit len i base x off d rest Hs Ho Hd Hb.
  cbn [esc_loop_nw]. rewrite Ho, Hs. unfold decode_rune.
  replace (d <? 128) with true by lia.
  replace (digit_val d >=? base) with false by lia.
  reflexivity.
Qed.

Lemma opt_bind_some : forall {A B} (o : option A) (f : A -> option B) c,
  opt_bind o f = Some c -> exists a, o = Some a /\ f a = Some c.
Proof. intros A B o f c H. destruct o as [a|]; [exists a; auto | discriminate H]. Qed.

(** The specification's reading of a digit string, most significant digit first. *)
Fixpoint digits (val : Z -> option Z) (base : Z) (ds : list Z) (x : Z) : option Z :=
  match ds with
  | [] => Some x
  | d :: ds' => do v <- val d; digits val base ds' (x * base + v)
  end.

Definition digit_reader (val : Z -> option Z) (base : Z) : Prop :=
  forall d v, val d = Some v -> 0 <= d < 128 /\ digit_val d = v /\ 0 <= v < base.

Lemma hex_reader : digit_reader hex_val 16.
Proof. exact hex_val_spec. Qed.

Lemma oct_reader : digit_reader oct_val 8.
Proof. intros d v H. apply oct_val_spec in H. lia. Qed.

Lemma esc_loop_nw_digits : forall val base, digit_reader val base ->
  forall ds pre post len x r,
  digits val base ds x = Some r -> Z.of_nat (length pre + length ds) < len ->
  esc_loop_nw (pre ++ ds ++ post) len (length ds) base x (Z.of_nat (length pre)) = Some r.
Proof.
  intros val base Hval. induction ds as [|d ds IH]; intros pre post len x r Hr Hl; [exact Hr|].
  cbn [digits length] in *. apply opt_bind_some in Hr. destruct Hr as (v & Hv & Hr).
  apply Hval in Hv. destruct Hv as (Hd & <- & Hb).
  rewrite (esc_nw_step _ _ _ _ _ _ d (ds ++ post));
    [ | rewrite Nat2Z.id, skipn_app, skipn_all, Nat.sub_diag; reflexivity | lia | assumption | lia].
  replace (pre ++ (d :: ds) ++ post) with ((pre ++ [d]) ++ ds ++ post)
    by (rewrite <- app_assoc; reflexivity).
  replace (Z.of_nat (length pre) + 1) with (Z.of_nat (length (pre ++ [d])))
    by (rewrite app_length; cbn [length]; lia).
  apply IH; [assumption | rewrite app_length; cbn [length]; lia].
Qed.

Lemma unquote_spec : forall l body, unquote l = Some body -> l = 39 :: body ++ [39].
Proof.
  intros l body. unfold unquote. destruct l as [|q rest]; [discriminate|].
  destruct (Z.eqb_spec q 39) as [->|]; [|discriminate].
  destruct (rev rest) as [|q' rb] eqn:R; [discriminate|].
  destruct (Z.eqb_spec q' 39) as [->|]; [|discriminate].
  intros [= <-]. f_equal. rewrite <- (rev_involutive rest), R. reflexivity.
Qed.

Lemma unquote_quote : forall body, unquote (39 :: body ++ [39]) = Some body.
Proof.
  intro body. unfold unquote. rewrite Z.eqb_refl, rev_app_distr. cbn [rev app].
  rewrite Z.eqb_refl, rev_involutive. reflexivity.
Qed.

Lemma byte_at_1 : forall a b t, byte_at (a :: b :: t) 1 = Some b.
Proof. reflexivity. Qed.
Lemma byte_at_2 : forall a b c t, byte_at (a :: b :: c :: t) 2 = Some c.
Proof. reflexivity. Qed.

Lemma lit_to_rune_escape : forall q t,
  lit_to_rune (q :: 92 :: t) = escape_char_val (q :: 92 :: t).
Proof. intros. unfold lit_to_rune. rewrite byte_at_1. reflexivity. Qed.

Lemma escape_char_val_x : forall l, byte_at l 2 = Some 120 ->
  escape_char_val l = esc_number l 2 16 255 3.
Proof. intros l H. unfold escape_char_val. rewrite H. reflexivity. Qed.
Lemma escape_char_val_u : forall l, byte_at l 2 = Some 117 ->
  escape_char_val l = esc_number l 4 16 max_rune 3.
Proof. intros l H. unfold escape_char_val. rewrite H. reflexivity. Qed.
Lemma escape_char_val_U : forall l, byte_at l 2 = Some 85 ->
  escape_char_val l = esc_number l 8 16 max_rune 3.
Proof. intros l H. unfold escape_char_val. rewrite H. reflexivity. Qed.
Lemma escape_char_val_oct : forall l a, byte_at l 2 = Some a -> 48 <= a <= 55 ->
  escape_char_val l = esc_number l 3 8 255 2.
Proof.
  intros l a H Ha. unfold escape_char_val. rewrite H.
  repeat match goal with |- context [a =? ?k] => replace (a =? k) with false by lia end.
  case_rng; [reflexivity | lia].
Qed.

Lemma esc_number_nw : forall l i base max off,
  (i <= 8)%nat -> 0 <= base <= 16 ->
  esc_number l i base max off =
  match esc_loop_nw l (Z.of_nat (length l)) i base 0 off with
  | None => None
  | Some x => if (x >? max) || ((55296 <=? x) && (x <? 57344)) then None else Some x
  end.
Proof. intros. unfold esc_number. rewrite esc_loop_no_wrap by assumption. reflexivity. Qed.

Lemma guard_inv : forall b v c, guard b v = Some c -> b = true /\ c = v.
Proof. intros b v c. unfold guard. destruct b; intros [= <-]; auto. Qed.

(** [ok] is the specification's side condition on the value; it covers the decoder's range check. *)
Lemma esc_number_digits : forall val base, digit_reader val base -> 0 <= base <= 16 ->
  forall (ok : Z -> bool) max, (forall v, ok v = true -> v <= max /\ ~ 55296 <= v <= 57343) ->
  forall pre ds q c, (length ds <= 8)%nat ->
  (do v <- digits val base ds 0; guard (ok v) v) = Some c ->
  esc_number (pre ++ ds ++ [q]) (length ds) base max (Z.of_nat (length pre)) = Some c.
Proof.
  intros val base Hval Hb ok max Hok pre ds q c Hn H.
  apply opt_bind_some in H. destruct H as (v & Hv & G).
  apply guard_inv in G. destruct G as [G ->]. apply Hok in G.
  rewrite esc_number_nw, (esc_loop_nw_digits val base Hval ds pre [q] _ 0 v); try assumption.
  - replace (_ || _) with false by lia. reflexivity.
  - rewrite !app_length. cbn [length]. lia.
Qed.

Lemma byte_ok : forall v, (v <=? 255) = true -> v <= 255 /\ ~ 55296 <= v <= 57343.
Proof. lia. Qed.

Lemma scalar_ok : forall v, is_scalar v = true -> v <= max_rune /\ ~ 55296 <= v <= 57343.
Proof. intros v H. apply is_scalar_spec in H. unfold max_rune. lia. Qed.

(* not [injection]: it reduces the [48 + _] of a spelling to a [match] *)
Lemma Some_inj : forall {A} (a b : A), Some a = Some b -> a = b.
Proof. intros A a b H. congruence. Qed.

(* once every digit has a value, the two sides differ by positional sum against Horner form *)
Ltac same_digits val :=
  repeat (destruct (val _); [|reflexivity]); cbn [opt_bind];
  match goal with |- guard _ ?p = guard _ ?h => replace h with p by lia end; reflexivity.

(** The specification's positional sums are [digits] (and two hex digits never exceed 255). *)
Lemma escape_value_3 : forall a b c,
  escape_value [a; b; c] =
  if a =? 120 then do v <- digits hex_val 16 [b; c] 0; guard (v <=? 255) v
  else do v <- digits oct_val 8 [a; b; c] 0; guard (v <=? 255) v.
Proof.
  intros. unfold escape_value. destruct (a =? 120); cbn [digits]; [|same_digits oct_val].
  destruct (hex_val b) as [h1|] eqn:E1; [cbn [opt_bind]|reflexivity].
  destruct (hex_val c) as [h0|] eqn:E0; [cbn [opt_bind]|reflexivity].
  apply hex_val_spec in E1, E0. unfold guard.
  replace (_ <=? 255) with true by lia. f_equal. lia.
Qed.

Lemma escape_value_u : forall u a b c d,
  escape_value [u; a; b; c; d] =
  if u =? 117 then do v <- digits hex_val 16 [a; b; c; d] 0; guard (is_scalar v) v else None.
Proof.
  intros. unfold escape_value. destruct (u =? 117); [cbn [digits]|reflexivity].
  same_digits hex_val.
Qed.

Lemma escape_value_U : forall u a b c d e f g h,
  escape_value [u; a; b; c; d; e; f; g; h] =
  if u =? 85 then do v <- digits hex_val 16 [a; b; c; d; e; f; g; h] 0; guard (is_scalar v) v
  else None.
Proof.
  intros. unfold escape_value. destruct (u =? 85); [cbn [digits]|reflexivity].
  same_digits hex_val.
Qed.

Lemma named_agrees : forall q b t c, named_value b = Some c ->
  escape_char_val (q :: 92 :: b :: t) = Some c.
Proof.
  intros q b t c H. unfold escape_char_val. rewrite byte_at_2. unfold named_value in H.
  repeat match goal with
  | |- (if ?b then _ else _) = _ => destruct b; [exact H|]
  end.
  discriminate H.
Qed.

Lemma escape_agrees : forall e c, escape_value e = Some c ->
  lit_to_rune (39 :: 92 :: e ++ [39]) = Some c.
Proof.
  intros e c H. rewrite lit_to_rune_escape.
  destruct e as [|a0 [|a1 [|a2 [|a3 [|a4 [|a5 [|a6 [|a7 [|a8 [|a9 e]]]]]]]]]];
    try discriminate H; cbn [app].
  - apply named_agrees, H.
  - rewrite escape_value_3 in H. destruct (Z.eqb_spec a0 120) as [->|_].
    + rewrite escape_char_val_x by reflexivity.
      apply (esc_number_digits _ _ hex_reader ltac:(lia) _ _ byte_ok [39; 92; 120] [a1; a2]);
        [cbn [length]; lia | exact H].
    + destruct (oct_val a0) as [o|] eqn:O;
        [apply oct_val_spec in O | cbn [digits] in H; rewrite O in H; discriminate H].
      rewrite (escape_char_val_oct _ a0) by (reflexivity || lia).
      apply (esc_number_digits _ _ oct_reader ltac:(lia) _ _ byte_ok [39; 92] [a0; a1; a2]);
        [cbn [length]; lia | exact H].
  - rewrite escape_value_u in H. destruct (Z.eqb_spec a0 117) as [->|_]; [|discriminate H].
    rewrite escape_char_val_u by reflexivity.
    apply (esc_number_digits _ _ hex_reader ltac:(lia) _ _ scalar_ok
             [39; 92; 117] [a1; a2; a3; a4]); [cbn [length]; lia | exact H].
  - rewrite escape_value_U in H. destruct (Z.eqb_spec a0 85) as [->|_]; [|discriminate H].
    rewrite escape_char_val_U by reflexivity.
    apply (esc_number_digits _ _ hex_reader ltac:(lia) _ _ scalar_ok
             [39; 92; 85] [a1; a2; a3; a4; a5; a6; a7; a8]); [cbn [length]; lia | exact H].
Qed.

Lemma raw_ok_spec : forall c, raw_ok c = true <->
  (is_scalar c = true /\ c <> 39 /\ c <> 92 /\ c <> 10).
Proof.
  intro c. unfold raw_ok. destruct (is_scalar c); lia.
Qed.

Lemma raw_value_inv : forall body c, raw_value body = Some c ->
  raw_ok c = true /\ body = encode_rune c.
Proof.
  intros body c. unfold raw_value.
  destruct (raw_ok (fst (decode_rune body))) eqn:R; [|discriminate].
  destruct (list_eq_dec Z.eq_dec (encode_rune (fst (decode_rune body))) body) as [E|];
    [|discriminate].
  intros [= <-]. auto.
Qed.

Lemma raw_value_encode : forall c, raw_ok c = true -> raw_value (encode_rune c) = Some c.
Proof.
  intros c H. pose proof H as H'. apply raw_ok_spec in H'. destruct H' as (Hs & _).
  unfold raw_value. rewrite decode_encode_exact by assumption. cbn [fst]. rewrite H.
  destruct (list_eq_dec Z.eq_dec (encode_rune c) (encode_rune c)); congruence.
Qed.

Theorem lit_to_rune_agrees : forall l c, golit_value l = Some c -> lit_to_rune l = Some c.
Proof.
  intros l c H. unfold golit_value in H.
  destruct (unquote l) as [body|] eqn:U; [|discriminate H].
  apply unquote_spec in U. subst l.
  destruct body as [|b0 e]; [discriminate H|].
  destruct (b0 =? 92) eqn:B.
  - apply Z.eqb_eq in B. subst b0. apply escape_agrees. exact H.
  - apply raw_value_inv in H. destruct H as (R & E). apply raw_ok_spec in R.
    unfold lit_to_rune. replace (byte_at _ 1) with (Some b0) by reflexivity.
    rewrite B. cbn [skipn]. rewrite E, decode_encode by tauto. cbn [length].
    rewrite app_length. replace (_ =? _) with true by (cbn [length]; lia). reflexivity.
Qed.

Lemma golit_escape : forall e, golit_value (39 :: (92 :: e) ++ [39]) = escape_value e.
Proof. intro e. unfold golit_value. rewrite unquote_quote. reflexivity. Qed.

Lemma named_value_char : forall c b, named_char c = Some b -> named_value b = Some c.
Proof.
  intros c b N. unfold named_char in N.
  repeat match type of N with
  | (if ?t then _ else _) = _ =>
    let E := fresh "E" in destruct t eqn:E;
    [apply Z.eqb_eq in E; apply Some_inj in N; subst; reflexivity|]
  end.
  discriminate N.
Qed.

Theorem spell_denotes : forall k c l, spell k c = Some l -> golit_value l = Some c.
Proof.
  intros k c l H.
  assert (D16 : forall m, 0 <= m mod 16 < 16) by (intro; apply Z.mod_pos_bound; lia).
  assert (D8 : forall m, 0 <= m mod 8 < 8) by (intro; apply Z.mod_pos_bound; lia).
  destruct k; unfold spell in H.
  - destruct (raw_ok c) eqn:R; [|discriminate H]. apply Some_inj in H. subst l.
    pose proof (raw_value_encode c R) as V. apply raw_ok_spec in R. destruct R as (Hs & _ & N & _).
    apply decode_encode_exact in Hs. unfold golit_value. rewrite unquote_quote.
    (* the body is not empty and does not begin with a backslash, since it decodes to [c] *)
    destruct (encode_rune c) as [|b0 e]; [discriminate V|].
    destruct (Z.eqb_spec b0 92) as [->|_]; [|exact V]. injection Hs as Hs _. congruence.
  - destruct (is_byte c) eqn:R; [|discriminate H]. apply Some_inj in H. subst l.
    unfold is_byte in R. refine (eq_trans (golit_escape [_; _; _]) _).
    unfold escape_value. rewrite Z.eqb_refl, !hex_val_hex_digit by (auto; apply div_digit; lia).
    cbn [opt_bind]. rewrite <- Z.div_mod by lia. reflexivity.
  - destruct (is_byte c) eqn:R; [|discriminate H]. apply Some_inj in H. subst l.
    unfold is_byte in R. refine (eq_trans (golit_escape [_; _; _]) _).
    assert (L : 0 <= c / 64 < 8) by (apply div_digit; lia).
    unfold escape_value. replace (48 + c / 64 =? 120) with false by lia.
    rewrite !oct_val_digit by auto. cbn [opt_bind].
    rewrite horner, <- Z.div_mod by lia. unfold guard.
    replace (c <=? 255) with true by lia. reflexivity.
  - destruct (is_scalar c && (c <? 65536)) eqn:R; [|discriminate H].
    apply Some_inj in H. subst l. apply andb_true_iff in R. destruct R as [Hs R].
    pose proof Hs as Hs'. apply is_scalar_spec in Hs'.
    refine (eq_trans (golit_escape [_; _; _; _; _]) _).
    unfold escape_value. rewrite Z.eqb_refl, !hex_val_hex_digit by (auto; apply div_digit; lia).
    cbn [opt_bind]. rewrite !horner, <- Z.div_mod, Hs by lia. reflexivity.
  - destruct (is_scalar c) eqn:Hs; [|discriminate H]. apply Some_inj in H. subst l.
    pose proof Hs as Hs'. apply is_scalar_spec in Hs'.
    refine (eq_trans (golit_escape [_; _; _; _; _; _; _; _; _]) _).
    unfold escape_value. rewrite Z.eqb_refl, !hex_val_hex_digit by (auto; apply div_digit; lia).
    cbn [opt_bind]. rewrite !horner, <- Z.div_mod, Hs by lia. reflexivity.
  - destruct (named_char c) as [b|] eqn:N; [|discriminate H].
    apply Some_inj in H. subst l. apply (named_value_char c b N).
Qed.

Corollary spell_decodes : forall k c l, spell k c = Some l -> lit_to_rune l = Some c.
Proof. intros k c l H. apply lit_to_rune_agrees. eapply spell_denotes. exact H. Qed.

Theorem spell_BigU_defined : forall c, is_scalar c = true -> spell BigU c <> None.
Proof. intros c H. unfold spell. rewrite H. discriminate. Qed.

Theorem spell_Raw_defined : forall c, is_scalar c = true ->
  c <> 39 -> c <> 92 -> c <> 10 -> spell Raw c <> None.
Proof.
  intros c H H1 H2 H3. unfold spell.
  replace (raw_ok c) with true by (symmetry; apply raw_ok_spec; auto).
  discriminate.
Qed.

Theorem spell_LittleU_defined : forall c, is_scalar c = true -> c < 65536 ->
  spell LittleU c <> None.
Proof.
  intros c H H1. unfold spell. rewrite H. replace (c <? 65536) with true by lia.
  discriminate.
Qed.

Theorem spell_Hex_Octal_defined : forall c, 0 <= c < 256 ->
  spell Hex c <> None /\ spell Octal c <> None.
Proof.
  intros c H. unfold spell, is_byte.
  replace ((0 <=? c) && (c <? 256)) with true by lia. split; discriminate.
Qed.

Corollary every_scalar_has_literal : forall c, is_scalar c = true ->
  exists l, golit_value l = Some c /\ lit_to_rune l = Some c.
Proof.
  intros c H. destruct (spell BigU c) as [l|] eqn:E.
  - exists l. split; [eapply spell_denotes | eapply spell_decodes]; exact E.
  - exfalso. exact (spell_BigU_defined c H E).
Qed.

Definition both (l : list Z) : option Z * option Z := (golit_value l, lit_to_rune l).

(* 'a' *)
Example ex_a : both [39; 97; 39] = (Some 97, Some 97).
Proof. vm_compute. reflexivity. Qed.
(* '\n' *)
Example ex_nl : both [39; 92; 110; 39] = (Some 10, Some 10).
Proof. vm_compute. reflexivity. Qed.
(* '\'' *)
Example ex_sq : both [39; 92; 39; 39] = (Some 39, Some 39).
Proof. vm_compute. reflexivity. Qed.
(* '\x41' *)
Example ex_hex : both [39; 92; 120; 52; 49; 39] = (Some 65, Some 65).
Proof. vm_compute. reflexivity. Qed.
(* '\101' *)
Example ex_oct : both [39; 92; 49; 48; 49; 39] = (Some 65, Some 65).
Proof. vm_compute. reflexivity. Qed.
(* '\377' *)
Example ex_oct_max : both [39; 92; 51; 55; 55; 39] = (Some 255, Some 255).
Proof. vm_compute. reflexivity. Qed.
(* '\u00e9' and '\u00E9' (lower- and upper-case hex digits), both U+00E9 *)
Example ex_u : both [39; 92; 117; 48; 48; 101; 57; 39] = (Some 233, Some 233)
            /\ both [39; 92; 117; 48; 48; 69; 57; 39] = (Some 233, Some 233).
Proof. vm_compute. split; reflexivity. Qed.
(* '\U0001F600' *)
Example ex_U : both [39; 92; 85; 48; 48; 48; 49; 70; 54; 48; 48; 39] = (Some 128512, Some 128512).
Proof. vm_compute. reflexivity. Qed.
(* '\U0010FFFF' *)
Example ex_U_max : both [39; 92; 85; 48; 48; 49; 48; 70; 70; 70; 70; 39] = (Some 1114111, Some 1114111).
Proof. vm_compute. reflexivity. Qed.
(* raw e-acute, U+00E9 = C3 A9 *)
Example ex_raw2 : both [39; 195; 169; 39] = (Some 233, Some 233).
Proof. vm_compute. reflexivity. Qed.
(* raw euro sign, U+20AC = E2 82 AC *)
Example ex_raw3 : both [39; 226; 130; 172; 39] = (Some 8364, Some 8364).
Proof. vm_compute. reflexivity. Qed.
(* raw U+1F600 = F0 9F 98 80 *)
Example ex_raw4 : both [39; 240; 159; 152; 128; 39] = (Some 128512, Some 128512).
Proof. vm_compute. reflexivity. Qed.

Example ex_spell :
  spell Raw 233 = Some [39; 195; 169; 39] /\
  spell Raw 128512 = Some [39; 240; 159; 152; 128; 39] /\
  spell Hex 65 = Some [39; 92; 120; 52; 49; 39] /\
  spell Octal 65 = Some [39; 92; 49; 48; 49; 39] /\
  spell LittleU 233 = Some [39; 92; 117; 48; 48; 101; 57; 39] /\
  spell BigU 128512 = Some [39; 92; 85; 48; 48; 48; 49; 102; 54; 48; 48; 39] /\
  spell Named 10 = Some [39; 92; 110; 39] /\
  spell Raw 39 = None /\ spell Raw 55296 = None /\ spell LittleU 65536 = None /\
  spell Hex 256 = None /\ spell Named 34 = None.
Proof. vm_compute. repeat split; reflexivity. Qed.

(** Both sides reject (Go panics) on these. *)
Example ex_reject :
  both [] = (None, None) /\ both [39] = (None, None) /\
  both [39; 39] = (None, None) /\                                 (* '' *)
  both [39; 97; 98; 39] = (None, None) /\                         (* 'ab' *)
  both [39; 92; 34; 39] = (None, None) /\                         (* backslash double-quote *)
  both [39; 92; 52; 48; 48; 39] = (None, None) /\                 (* '\400' *)
  both [39; 92; 56; 48; 48; 39] = (None, None) /\                 (* '\800' *)
  both [39; 92; 120; 103; 48; 39] = (None, None) /\               (* '\xg0' *)
  both [39; 92; 117; 68; 56; 48; 48; 39] = (None, None) /\        (* '\uD800' *)
  both [39; 92; 85; 48; 48; 49; 49; 48; 48; 48; 48; 39] = (None, None) /\  (* '\U00110000' *)
  both [39; 92; 85; 70; 70; 70; 70; 70; 70; 70; 70; 39] = (None, None) /\  (* '\UFFFFFFFF' *)
  both [39; 226; 130; 39] = (None, None) /\                       (* truncated 3-byte UTF-8 *)
  both [39; 195; 169; 169; 39] = (None, None).                    (* e-acute plus stray continuation byte *)
Proof. vm_compute. repeat split; reflexivity. Qed.

(** Findings: the converse of [lit_to_rune_agrees] is FALSE.
    Inputs that are NOT valid Go rune literals but on which LitToRune returns a value
    instead of panicking (first component None = invalid in Go, second = gocc's result). *)

(* F1: too few digits: loop stops early at the closing quote without complaint *)
Example finding_short_escapes :
  both [39; 92; 120; 52; 39] = (None, Some 4) /\                  (* '\x4'  -> 4 *)
  both [39; 92; 120; 39] = (None, Some 0) /\                      (* '\x'   -> 0 *)
  both [39; 92; 117; 52; 49; 39] = (None, Some 65) /\             (* '\u41' -> 65 *)
  both [39; 92; 85; 52; 49; 39] = (None, Some 65) /\              (* '\U41' -> 65 *)
  both [39; 92; 55; 39] = (None, Some 7) /\                       (* '\7'   -> 7 *)
  both [39; 92; 49; 50; 39] = (None, Some 10).                    (* '\12'  -> 10 *)
Proof. vm_compute. repeat split; reflexivity. Qed.

(* F2: trailing bytes after a complete escape are ignored *)
Example finding_trailing_garbage :
  both [39; 92; 110; 97; 98; 99; 39] = (None, Some 10) /\         (* '\nabc' -> 10 *)
  both [39; 92; 120; 52; 49; 122; 122; 39] = (None, Some 65) /\   (* '\x41zz' -> 65 *)
  both [39; 92; 49; 48; 49; 57; 39] = (None, Some 65).            (* '\1019' -> 65 *)
Proof. vm_compute. repeat split; reflexivity. Qed.

(* F3: the quotes are never inspected *)
Example finding_quotes_unchecked :
  both [120; 97; 121] = (None, Some 97) /\                        (* xay -> 97 *)
  both [39; 92; 110] = (None, Some 10) /\                         (* '\n (unterminated) -> 10 *)
  both [39; 92; 39] = (None, Some 39) /\                          (* '\' -> 39 *)
  both [39; 92; 120; 52; 49] = (None, Some 4).                    (* '\x41 unterminated: last byte taken for the quote -> 4 *)
Proof. vm_compute. repeat split; reflexivity. Qed.

(* F4: raw characters that Go forbids are accepted; ill-formed UTF-8 of length 1 yields U+FFFD *)
Example finding_raw :
  both [39; 39; 39] = (None, Some 39) /\                          (* ''' -> 39 *)
  both [39; 10; 39] = (None, Some 10) /\                          (* raw newline -> 10 *)
  both [39; 255; 39] = (None, Some 65533) /\                      (* byte FF -> U+FFFD *)
  both [39; 128; 39] = (None, Some 65533) /\                      (* lone continuation byte -> U+FFFD *)
  both [39; 195; 39] = (None, Some 65533).                        (* truncated 2-byte sequence -> U+FFFD *)
Proof. vm_compute. repeat split; reflexivity. Qed.

Print Assumptions esc_loop_no_wrap.
Print Assumptions lit_to_rune_agrees.
Print Assumptions spell_denotes.
Print Assumptions spell_decodes.
Print Assumptions spell_BigU_defined.
Print Assumptions spell_Raw_defined.
Print Assumptions every_scalar_has_literal.
