(** Reflection of the boolean validator conditions into propositions, and the list facts that the
    proofs about the parse stack share. *)
From Coq Require Import List Arith ZArith Lia Bool.
From Gocc Require Import LR.Parse LR.Validate.
Import ListNotations.

Lemma sym_eqb_eq a b : sym_eqb a b = true <-> a = b.
Proof. destruct a, b; simpl; rewrite ?Nat.eqb_eq; split; intro H; try discriminate; try congruence. Qed.

Lemma item_eqb_eq a b : item_eqb a b = true <-> a = b.
Proof.
  destruct a as [[p1 k1] l1], b as [[p2 k2] l2]. unfold item_eqb.
  rewrite !andb_true_iff, !Nat.eqb_eq. split; [intros [[-> ->] ->]; reflexivity|intros H; inversion H; auto].
Qed.

Lemma mem_item_In i l : mem_item i l = true <-> In i l.
Proof.
  unfold mem_item. rewrite existsb_exists. split.
  - intros [x [Hin Hx]]. apply item_eqb_eq in Hx. subst. exact Hin.
  - intros H. exists i. split; [exact H|apply item_eqb_eq; reflexivity].
Qed.

Lemma mem_nat_In n l : mem_nat n l = true <-> In n l.
Proof.
  unfold mem_nat. rewrite existsb_exists. split.
  - intros [x [Hin Hx]]. apply Nat.eqb_eq in Hx. subst. exact Hin.
  - intros H. exists n. split; [exact H|apply Nat.eqb_refl].
Qed.

Lemma forallb_seq f n : forallb f (seq 0 n) = true <-> forall i, i < n -> f i = true.
Proof.
  rewrite forallb_forall. split.
  - intros H i Hi. apply H. apply in_seq. lia.
  - intros H i Hi. apply in_seq in Hi. apply H. lia.
Qed.

Lemma firstn_snoc {A} (l : list A) k x : nth_error l k = Some x -> firstn (S k) l = firstn k l ++ [x].
Proof.
  revert k. induction l as [|y l IH]; intros [|k] H; simpl in *; try discriminate.
  - inversion H; reflexivity.
  - f_equal. apply IH. exact H.
Qed.

Lemma skipn_app_le {A} (l1 l2 : list A) n : n <= length l1 -> skipn n (l1 ++ l2) = skipn n l1 ++ l2.
Proof. intros H. rewrite skipn_app. replace (n - length l1) with 0 by lia. reflexivity. Qed.

Lemma firstn_app_le {A} (l1 l2 : list A) n : n <= length l1 -> firstn n (l1 ++ l2) = firstn n l1.
Proof. intros H. rewrite firstn_app. replace (n - length l1) with 0 by lia. simpl. apply app_nil_r. Qed.

Lemma In_skipn {A} (x : A) n l : In x (skipn n l) -> In x l.
Proof. intros H. rewrite <- (firstn_skipn n l). apply in_or_app. now right. Qed.

Lemma firstn_S_nth {A} : forall i (l : list A) d, i < length l -> firstn (S i) l = firstn i l ++ [nth i l d].
Proof.
  induction i as [|i IH]; intros [|x l] d H; simpl in *; try lia; [reflexivity|].
  f_equal. apply IH. lia.
Qed.

Lemma nth_firstn_app {A} j i (l rest : list A) d :
  j < i -> i <= length l -> nth j (firstn i l ++ rest) d = nth j l d.
Proof.
  intros Hj Hi. rewrite app_nth1 by (rewrite firstn_length; lia).
  rewrite <- (firstn_skipn i l) at 2. rewrite app_nth1 by (rewrite firstn_length; lia). reflexivity.
Qed.

Lemma skipn_length_app {A} (a b : list A) : skipn (length a) (a ++ b) = b.
Proof. induction a as [|x a IH]; simpl; auto. Qed.

Lemma firstn_length_app {A} (a b : list A) : firstn (length a) (a ++ b) = a.
Proof. induction a as [|x a IH]; simpl; [reflexivity|]. now rewrite IH. Qed.

Lemma skipn_app_shift {A} : forall i (l a b : list A), skipn i l = a ++ b -> skipn (i + length a) l = b.
Proof.
  induction i as [|i IH]; intros l a b H.
  - simpl in *. subst l. apply skipn_length_app.
  - destruct l as [|x l]; simpl in *.
    + symmetry in H. apply app_eq_nil in H. destruct H as [-> ->]. reflexivity.
    + apply IH. exact H.
Qed.

Lemma skipn_cons_inv {A} : forall j (l : list A) x l',
  skipn j l = x :: l' -> nth_error l j = Some x /\ skipn (S j) l = l'.
Proof.
  induction j as [|j IH]; intros [|y l] x l' H; simpl in *; try discriminate.
  - inversion H; subst. split; reflexivity.
  - apply IH in H. exact H.
Qed.

Lemma nth_skipn_hd {A} : forall i (l : list A) x r d, skipn i l = x :: r -> nth i l d = x.
Proof.
  induction i as [|i IH]; intros [|y l] x r d H; simpl in *; try discriminate.
  - now inversion H.
  - eapply IH; eauto.
Qed.

Lemma nth_error_seq0 n len : n < len -> nth_error (seq 0 len) n = Some n.
Proof.
  intros H. rewrite (nth_error_nth' _ 0) by (now rewrite seq_length).
  now rewrite seq_nth.
Qed.

Lemma app_inv_length_l {A} (a b c d : list A) : a ++ b = c ++ d -> length a = length c -> a = c /\ b = d.
Proof.
  revert c. induction a as [|x a IH]; intros [|y c] H Hl; simpl in *; try discriminate; [auto|].
  inversion H; subst. destruct (IH c H2) as [-> ->]; [lia|]. auto.
Qed.

Lemma nth_error_combine {A B} : forall n (l1 : list A) (l2 : list B) a b,
  nth_error l1 n = Some a -> nth_error l2 n = Some b -> nth_error (combine l1 l2) n = Some (a, b).
Proof.
  induction n as [|n IH]; intros [|x l1] [|y l2] a b H1 H2; simpl in *; try discriminate.
  - congruence.
  - auto.
Qed.

Lemma goto_nat_inv tb s n s' : goto_nat tb s n = Some s' ->
  exists z, goto_at tb s n = Some z /\ (z <? 0)%Z = false /\ s' = Z.to_nat z.
Proof.
  unfold goto_nat. destruct (goto_at tb s n) as [z|]; [|discriminate].
  destruct (z <? 0)%Z eqn:E; [discriminate|]. intros [= <-]. eauto.
Qed.

Section R.
Variable g : grammar.
Variable tb : tables.
Variable an : annot.

Notation items_of := (items_of an).
Notation nstates := (nstates tb).
Notation nterms := (nterms tb).
Notation nnts := (nnts tb).

Record shape_P : Prop := {
  sh_pos : 0 < nstates;
  sh_items : length (a_items an) = nstates;
  sh_rows : forall s r, nth_error (t_states tb) s = Some r ->
            length (s_actions r) = nterms /\ length (s_gotos r) = nnts /\
            (forall a s', nth_error (s_actions r) a = Some (Some (Shift s')) -> s' < nstates) /\
            (forall a p, nth_error (s_actions r) a = Some (Some (Reduce p)) -> p < length g) /\
            (forall n z, nth_error (s_gotos r) n = Some z -> (z < Z.of_nat nstates)%Z);
  sh_prods : forall p, (exists pr, nth_error g p = Some pr) <-> (exists pw, nth_error (t_prods tb) p = Some pw);
  sh_prod : forall p pr pw, nth_error g p = Some pr -> nth_error (t_prods tb) p = Some pw ->
            p_nt pw = lhs pr /\ p_len pw = length (rhs pr) /\ lhs pr < nnts /\
            (forall X, In X (rhs pr) -> match X with T a => a < nterms | NT n => n < nnts end);
  sh_terms : 1 < nterms;
  sh_err : t_err tb < nterms
}.

Lemma shape_ok_P : shape_ok g tb an = true -> shape_P.
Proof.
  unfold shape_ok. intros H7.
  apply andb_prop in H7 as [H6 H7]. apply andb_prop in H6 as [H5 H6]. apply andb_prop in H5 as [H4 H5].
  apply andb_prop in H4 as [H3 H4]. apply andb_prop in H3 as [H2 H3]. apply andb_prop in H2 as [H1 H2].
  apply Nat.ltb_lt in H1. apply Nat.eqb_eq in H2. apply Nat.eqb_eq in H4.
  apply Nat.ltb_lt in H6. apply Nat.ltb_lt in H7.
  rewrite forallb_forall in H3. rewrite forallb_forall in H5.
  constructor; auto.
  - intros s r Hr. specialize (H3 r (nth_error_In _ _ Hr)).
    rewrite !andb_true_iff in H3. destruct H3 as [[[Ha Hb] Hc] Hd].
    apply Nat.eqb_eq in Ha. apply Nat.eqb_eq in Hb.
    rewrite forallb_forall in Hc. rewrite forallb_forall in Hd.
    split; [exact Ha|]. split; [exact Hb|]. split; [|split].
    + intros a s' Hn. specialize (Hc _ (nth_error_In _ _ Hn)). simpl in Hc. apply Nat.ltb_lt in Hc. exact Hc.
    + intros a p Hn. specialize (Hc _ (nth_error_In _ _ Hn)). simpl in Hc. apply Nat.ltb_lt in Hc. exact Hc.
    + intros n z Hn. specialize (Hd _ (nth_error_In _ _ Hn)). apply Z.ltb_lt in Hd. exact Hd.
  - intros p. split; intros [x Hx].
    + assert (p < length (t_prods tb)) by (rewrite H4; apply nth_error_Some; congruence).
      destruct (nth_error (t_prods tb) p) eqn:E; [eauto|]. apply nth_error_None in E. lia.
    + assert (p < length g) by (rewrite <- H4; apply nth_error_Some; congruence).
      destruct (nth_error g p) eqn:E; [eauto|]. apply nth_error_None in E. lia.
  - intros p pr pw Hg Ht.
    pose proof (nth_error_In _ _ (nth_error_combine _ _ _ _ _ Ht Hg)) as Hin.
    specialize (H5 _ Hin). simpl in H5. rewrite !andb_true_iff in H5. destruct H5 as [[[Ha Hb] Hc] Hd].
    apply Nat.eqb_eq in Ha. apply Nat.eqb_eq in Hb. apply Nat.ltb_lt in Hc.
    rewrite forallb_forall in Hd.
    repeat split; auto. intros X HX. specialize (Hd X HX). destruct X; apply Nat.ltb_lt in Hd; exact Hd.
Qed.

Hypothesis SH : shape_P.

Lemma items_of_range s i : In i (items_of s) -> s < nstates.
Proof.
  unfold Validate.items_of. intros H.
  destruct (Nat.lt_ge_cases s nstates) as [Hlt|Hge]; [exact Hlt|].
  rewrite nth_overflow in H by (rewrite (sh_items SH); exact Hge). destruct H.
Qed.

Lemma action_at_range s a x : action_at tb s a = Some x -> s < nstates /\ a < nterms.
Proof.
  unfold action_at. destruct (nth_error (t_states tb) s) as [r|] eqn:E; [|discriminate].
  intros H. split.
  - apply nth_error_Some. congruence.
  - destruct (sh_rows SH s r E) as (Ha & _). rewrite <- Ha. apply nth_error_Some. congruence.
Qed.

Lemma action_at_some s a : s < nstates -> a < nterms -> exists x, action_at tb s a = Some x.
Proof.
  intros Hs Ha. unfold action_at, Validate.nstates in *.
  destruct (nth_error (t_states tb) s) as [r|] eqn:E; [|apply nth_error_None in E; lia].
  destruct (sh_rows SH s r E) as (Hl & _).
  destruct (nth_error (s_actions r) a) as [x|] eqn:E2; [eauto|]. apply nth_error_None in E2. lia.
Qed.

Lemma tok_type_lt input : Forall (fun t => ttype t < nterms) input -> forall pos, ttype (tok_at input pos) < nterms.
Proof.
  intros INR pos. unfold tok_at. destruct (Nat.lt_ge_cases pos (length input)) as [Hlt|Hge].
  - rewrite Forall_forall in INR. apply INR. apply nth_In. exact Hlt.
  - rewrite nth_overflow by exact Hge. exact (sh_terms SH).
Qed.

Lemma goto_nat_range s n s' : goto_nat tb s n = Some s' -> s < nstates /\ n < nnts /\ s' < nstates.
Proof.
  intros H. destruct (goto_nat_inv _ _ _ _ H) as (z & Hg & Ez & ->). unfold goto_at in Hg.
  destruct (nth_error (t_states tb) s) as [r|] eqn:E; [|discriminate].
  destruct (sh_rows SH s r E) as (_ & Hb & _ & _ & Hz). apply Z.ltb_ge in Ez.
  split; [apply nth_error_Some; congruence|]. split.
  - rewrite <- Hb. apply nth_error_Some. congruence.
  - specialize (Hz _ _ Hg). lia.
Qed.

Lemma trans_range s X s' : trans tb s X = Some s' ->
  s < nstates /\ s' < nstates /\ match X with T a => a < nterms | NT n => n < nnts end.
Proof.
  destruct X as [a|n]; simpl.
  - destruct (action_at tb s a) as [[[s2|p|]|]|] eqn:E; try discriminate. intros H; inversion H; subst.
    destruct (action_at_range _ _ _ E) as [H1 H2]. repeat split; auto.
    unfold action_at in E. destruct (nth_error (t_states tb) s) as [r|] eqn:Er; [|discriminate].
    destruct (sh_rows SH s r Er) as (_ & _ & Hs & _). eapply Hs; eauto.
  - intros H. destruct (goto_nat_range _ _ _ H) as (H1 & H2 & H3). auto.
Qed.

Record backward_P : Prop := {
  B_init : forall p k la, In (p, k, la) (items_of 0) -> k = 0;
  B_kernel : forall s X s', trans tb s X = Some s' ->
             s' <> 0 /\
             forall p k la, In (p, S k, la) (items_of s') ->
               exists pr, nth_error g p = Some pr /\ nth_error (rhs pr) k = Some X /\ In (p, k, la) (items_of s);
  B_reduce : forall s a p, action_at tb s a = Some (Some (Reduce p)) ->
             p <> 0 /\ exists pr, nth_error g p = Some pr /\ In (p, length (rhs pr), a) (items_of s);
  B_accept : forall s a, action_at tb s a = Some (Some Accept) ->
             a = EOFT /\ exists pr, nth_error g 0 = Some pr /\ length (rhs pr) = 1 /\ In (0, 1, EOFT) (items_of s);
  B_shift : forall s a s', action_at tb s a = Some (Some (Shift s')) -> a <> EOFT;
  B_start0 : forall s la, In (0, 0, la) (items_of s) -> s = 0;
  B_demand : forall s p la pr, In (p, 0, la) (items_of s) -> p <> 0 -> nth_error g p = Some pr ->
             exists s', goto_nat tb s (lhs pr) = Some s';
  B_items : forall s p k la, In (p, k, la) (items_of s) ->
            exists pr, nth_error g p = Some pr /\ k <= length (rhs pr) /\ la < nterms
}.

Lemma forall_states_P f : forall_states tb f = true -> forall s, s < nstates -> f s = true.
Proof. unfold forall_states. now rewrite forallb_seq. Qed.

Lemma forall_terms_P f : forall_terms tb f = true -> forall a, a < nterms -> f a = true.
Proof. unfold forall_terms. now rewrite forallb_seq. Qed.

Lemma forall_nts_P f : forall_nts tb f = true -> forall n, n < nnts -> f n = true.
Proof. unfold forall_nts. now rewrite forallb_seq. Qed.

Lemma forall_items_P f : forall_states tb (fun s => forallb (f s) (items_of s)) = true ->
  forall s it, In it (items_of s) -> f s it = true.
Proof.
  intros H s it Hin. pose proof (forall_states_P _ H s (items_of_range _ _ Hin)) as H1. cbv beta in H1.
  rewrite forallb_forall in H1. exact (H1 _ Hin).
Qed.

Lemma b_actions_P : b_actions g tb an = true -> forall s a x, action_at tb s a = Some x ->
  match x with
  | Some (Reduce p) =>
    match nth_error g p with Some pr => mem_item (p, length (rhs pr), a) (items_of s) && negb (Nat.eqb p 0) | None => false end
  | Some Accept =>
    Nat.eqb a EOFT &&
    match nth_error g 0 with Some pr => Nat.eqb (length (rhs pr)) 1 && mem_item (0, 1, EOFT) (items_of s) | None => false end
  | Some (Shift _) => negb (Nat.eqb a EOFT)
  | None => true
  end = true.
Proof.
  intros Ha s a x Hact. destruct (action_at_range _ _ _ Hact) as [Hs1 Ha1].
  pose proof (forall_terms_P _ (forall_states_P _ Ha s Hs1) a Ha1) as H. cbv beta in H.
  rewrite Hact in H. destruct x as [[s'|p|]|]; [exact H..|reflexivity].
Qed.

Lemma b_trans_P : b_trans g tb an = true -> forall s X s', trans tb s X = Some s' -> kernel_ok g an s X s' = true.
Proof.
  intros Ht s X s' Htr. destruct (trans_range _ _ _ Htr) as (Hs1 & _ & HX).
  pose proof (forall_states_P _ Ht s Hs1) as H. cbv beta in H. apply andb_prop in H as [H1 H2].
  destruct X as [a|n].
  - pose proof (forall_terms_P _ H1 a HX) as H. cbv beta in H. now rewrite Htr in H.
  - pose proof (forall_nts_P _ H2 n HX) as H. cbv beta in H. now rewrite Htr in H.
Qed.

Lemma valid_backward_parts : valid_backward g tb an = true ->
  shape_ok g tb an = true /\ items_wf g tb an = true /\ b_init an = true /\ b_trans g tb an = true /\
  b_actions g tb an = true /\ b_demand g tb an = true.
Proof.
  unfold valid_backward. intros H. do 5 (apply andb_prop in H; destruct H as [H ?]). repeat split; assumption.
Qed.

Lemma valid_backward_P : valid_backward g tb an = true -> backward_P.
Proof.
  intros H. destruct (valid_backward_parts H) as (_ & Hiw & Hi & Ht & Ha & Hd).
  unfold b_init in Hi. rewrite forallb_forall in Hi.
  constructor.
  - intros p k la Hin. specialize (Hi _ Hin). cbv beta iota in Hi. now apply Nat.eqb_eq in Hi.
  - intros s X s' Htr. pose proof (b_trans_P Ht _ _ _ Htr) as Hk.
    unfold kernel_ok in Hk. apply andb_prop in Hk as [Hk Hk3]. apply andb_prop in Hk as [Hk1 _].
    apply negb_true_iff, Nat.eqb_neq in Hk1. split; [exact Hk1|].
    intros p k la Hin. rewrite forallb_forall in Hk3. specialize (Hk3 _ Hin). cbv beta iota in Hk3.
    destruct (nth_error g p) as [pr|]; [|discriminate].
    destruct (nth_error (rhs pr) k) as [Y|] eqn:EY; [|discriminate].
    apply andb_prop in Hk3 as [He Hm]. apply sym_eqb_eq in He. subst Y.
    apply mem_item_In in Hm. exists pr. auto.
  - intros s a p Hact. pose proof (b_actions_P Ha _ _ _ Hact) as H1. cbv beta iota in H1.
    destruct (nth_error g p) as [pr|]; [|discriminate].
    apply andb_prop in H1 as [Hm Hp]. apply mem_item_In in Hm. apply negb_true_iff, Nat.eqb_neq in Hp.
    split; [exact Hp|]. exists pr; auto.
  - intros s a Hact. pose proof (b_actions_P Ha _ _ _ Hact) as H1. cbv beta iota in H1.
    apply andb_prop in H1 as [He Hr]. apply Nat.eqb_eq in He.
    split; [exact He|]. destruct (nth_error g 0) as [pr|]; [|discriminate].
    apply andb_prop in Hr as [Hl Hm]. apply Nat.eqb_eq in Hl. apply mem_item_In in Hm.
    exists pr; auto.
  - intros s a s' Hact. pose proof (b_actions_P Ha _ _ _ Hact) as H1. cbv beta iota in H1.
    intros ->. discriminate.
  - intros s la Hin. pose proof (forall_items_P _ Hd s _ Hin) as H1. cbv beta iota in H1.
    now apply Nat.eqb_eq in H1.
  - intros s p la pr Hin Hp Hg. pose proof (forall_items_P _ Hd s _ Hin) as H1. cbv beta iota in H1.
    apply Nat.eqb_neq in Hp. rewrite Hp, Hg in H1.
    destruct (goto_nat tb s (lhs pr)) as [s'|]; [eauto|discriminate].
  - intros s p k la Hin. pose proof (forall_items_P _ Hiw s _ Hin) as H1. cbv beta iota in H1.
    destruct (nth_error g p) as [pr|]; [|discriminate]. apply andb_prop in H1 as [H1 H2].
    apply Nat.leb_le in H1. apply Nat.ltb_lt in H2. exists pr. auto.
Qed.

Lemma no_error_shift_P : no_error_shift tb = true ->
  forall s s', action_at tb s (t_err tb) <> Some (Some (Shift s')).
Proof.
  intros H s s' Hact. destruct (action_at_range _ _ _ Hact) as [Hs1 _].
  pose proof (forall_states_P _ H s Hs1) as H1. cbv beta in H1. rewrite Hact in H1. discriminate.
Qed.

End R.
