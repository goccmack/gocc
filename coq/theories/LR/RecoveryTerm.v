(** Property C07: termination WITH error recovery, for canonical LR(1) tables.

    Hypotheses: [valid_backward], [valid_forward] (conflict-free tables of the full grammar,
    error alternatives included) and the canonicity checks [x_null], [x_first], [x_prod],
    [x_closure] of Exact.v ([no_error_shift] is NOT assumed, nothing is assumed about the
    recovery flags).

    Key fact ([action_progress]): in a configuration whose stack is a path of the automaton (in
    particular right after a successful recovery) and whose top state has a non-nil action for
    the look-ahead, the parser makes Shift/Reduce moves only - no error - until it shifts the
    look-ahead or accepts.  So every recovery is followed by the shift of a token (or by
    acceptance) before the next error: each error consumes at least one token, and the parse
    returns ([C07_terminates]).

    The proof does not use valid-item theory: a complete item [A -> alpha ., a] of the top state
    comes from a dot-0 item of the state below [alpha], which [x_closure] justifies by an
    EARLIER item [B -> beta . A gamma, b] of the same state with [a] in FIRST(gamma b); after the
    reduce either [gamma] derives a string beginning with [a] - then a virtual input and the
    small-step completeness theorem (CompleteSteps.v) show that [a] is shifted - or [gamma] is
    nullable and [a = b]: the parser reaches [B -> beta A gamma ., a] with the same look-ahead
    and the argument repeats, lower in the stack or earlier in the item list. *)
From Coq Require Import List Arith ZArith Lia Bool.
From Gocc Require Import LR.Parse LR.Validate LR.ValidateProofs LR.Trees LR.Complete LR.Derive
  LR.Steps LR.Exact LR.CompleteSteps LR.Recovery.
Import ListNotations.

Lemma x_recover'_eq tb : x_recover' tb = x_recover tb.
Proof. reflexivity. Qed.

(** A virtual input for look-ahead number [i]: [i] copies of [next], then tokens spelling [y]
    ([next] itself first), then a token of type [la] ([next] itself if [y] is empty). *)
Lemma virtual_input (next : token) i la y : hd la y = ttype next ->
  exists in2 w2 tk, map ttype w2 = y /\ skipn i in2 = w2 ++ [tk] /\ tok_at in2 i = next /\
    ttype (tok_at in2 (i + length w2)) = la.
Proof.
  intros Hhd. set (mk := fun ty => {| ttype := ty; tid := 0 |}).
  assert (H : exists w2 tk r, map ttype w2 = y /\ ttype tk = la /\ w2 ++ [tk] = next :: r).
  { destruct y as [|a0 y']; simpl in Hhd.
    - exists [], next, []. repeat split. now symmetry.
    - exists (next :: map mk y'), (mk la), (map mk y' ++ [mk la]). repeat split.
      cbn [map]. rewrite <- Hhd, map_map. cbn. now rewrite map_id. }
  destruct H as (w2 & tk & r & Hw2 & Htk & Hr).
  assert (Hsk : skipn i (repeat next i ++ w2 ++ [tk]) = w2 ++ [tk]).
  { rewrite <- (repeat_length next i) at 1. apply skipn_length_app. }
  exists (repeat next i ++ w2 ++ [tk]), w2, tk. repeat split; [exact Hw2|exact Hsk| |].
  - apply (tok_at_skipn _ i next r). now rewrite Hsk.
  - rewrite (tok_at_skipn _ (i + length w2) tk []); [exact Htk|]. apply skipn_app_shift. exact Hsk.
Qed.

Section Term.
Variable g : grammar.
Variable tb : tables.
Variable an : annot.
Variable sem : nat -> nat -> list attr -> option attr.
Variable input : list token.

Hypothesis VF : valid_forward g tb an = true.
Hypothesis VB : valid_backward g tb an = true.
Hypothesis XN : x_null g an = true.
Hypothesis XF : x_first g tb an = true.
Hypothesis XP : x_prod g tb an = true.
Hypothesis XCl : x_closure g tb an = true.
Hypothesis sem_total : forall i p kids, sem i p kids <> None.
Hypothesis INR : Forall (fun t => ttype t < nterms tb) input.

Notation items_of := (items_of an).
Notation bot := [(0, ANil)].

Lemma SH : shape_P g tb an.
Proof. exact (V_shape g tb an VF). Qed.

Lemma BW : backward_P g tb an.
Proof. apply valid_backward_P; [exact SH|exact VB]. Qed.

Lemma NUL : forall n, nullable_nt an n = true -> der g (NT n) [].
Proof. apply x_null_P. exact XN. Qed.

(** progress: Shift/Reduce moves only, until the look-ahead is consumed or the parse accepts *)
Definition Prog (c : cfg) : Prop :=
  exists n c', steps tb sem input n c = Some c' /\
    (c_i c' = S (c_i c) \/ (c_i c' = c_i c /\ accepting tb input c')).

Lemma Prog_steps n c c1 : steps tb sem input n c = Some c1 -> c_i c1 = c_i c -> Prog c1 -> Prog c.
Proof.
  intros Hst Hi (m & c' & Hm & Hc). exists (n + m), c'. split.
  - eapply steps_app; eauto.
  - rewrite <- Hi. exact Hc.
Qed.

Lemma lock_progress in2 : forall N c cN,
  steps tb sem in2 N c = Some cN -> tok_at input (c_i c) = tok_at in2 (c_i c) ->
  Prog c \/ (steps tb sem input N c = Some cN /\ c_i cN = c_i c).
Proof.
  induction N as [|N IH]; intros c cN H Ht; simpl in H.
  - injection H as <-. right. split; reflexivity.
  - destruct (step tb sem in2 c) as [c1|] eqn:Hs; [|discriminate].
    assert (Hs1 : steps tb sem input 1 c = Some c1)
      by (simpl; rewrite (step_agree tb sem input in2 c Ht), Hs; reflexivity).
    destruct (step_index _ _ _ _ _ Hs) as [Hi|Hi].
    + destruct (IH c1 cN H) as [HP|[Hm Hc]]; [rewrite Hi; exact Ht| |].
      * left. exact (Prog_steps 1 c c1 Hs1 Hi HP).
      * right. split; [exact (steps_app tb sem input 1 N _ _ _ Hs1 Hm)|congruence].
    + left. exists 1, c1. auto.
Qed.

Lemma justified s q b :
  s < nstates tb -> In (q, 0, b) (items_of s) -> q <> 0 ->
  exists it, In it (items_of s) /\ just_by g an q b it = true.
Proof.
  intros Hs Hin Hq.
  set (P := fun it : item => match it with
                             | (q', O, b') => q' <> 0 -> exists it', In it' (items_of s) /\ just_by g an q' b' it' = true
                             | _ => True end).
  assert (H : P (q, 0, b)).
  { apply (just_list_ind g an P (items_of s)) with (rest := items_of s) (acc := []).
    - intros q' b' it Hq' Hit _ Hj. simpl. intros _. exists it. auto.
    - apply (x_closure_P g tb an XCl s Hs).
    - intros it [].
    - auto.
    - intros p k la _. exact I.
    - intros la _. simpl. intros Hc. congruence.
    - exact Hin. }
  exact (H Hq).
Qed.

(** ** the claim for an item [it = (p, k, la)] of the state on top of [cells]: once the symbol after
    the dot has been pushed, with a look-ahead compatible with the rest of the item, the parser
    progresses *)
Definition Claim (cells : stack) (it : item) : Prop :=
  let '(p, k, la) := it in
  forall pr X s' v i calls lg,
    nth_error g p = Some pr -> nth_error (rhs pr) k = Some X -> trans tb (tops cells) X = Some s' ->
    In (ttype (tok_at input i)) (first_seq an (skipn (S k) (rhs pr)) la) ->
    Prog (mkc ((s', v) :: cells ++ bot) i calls lg).

Lemma reduce_step pre rest s la p pr i calls lg :
  top (pre ++ rest ++ bot) = Some s ->
  action_at tb s (ttype (tok_at input i)) = Some (Some (Reduce p)) ->
  nth_error g p = Some pr -> p <> 0 -> length pre = length (rhs pr) ->
  In (p, 0, la) (items_of (tops rest)) ->
  exists s' v c' lg', trans tb (tops rest) (NT (lhs pr)) = Some s' /\
    step tb sem input (mkc (pre ++ rest ++ bot) i calls lg) = Some (mkc ((s', v) :: rest ++ bot) i c' lg').
Proof.
  intros Ht Ha Hp Hne Hlen Hin0.
  destruct (prods_spec g tb an VF _ _ Hp) as (pw & Hpw & Hnt & Hpl).
  destruct (B_demand _ _ _ BW _ _ _ _ Hin0 Hne Hp) as [s' Hs']. exists s'.
  destruct (goto_nat_inv _ _ _ _ Hs') as (z & Hgz & Hz & ->).
  destruct (red_result tb sem p (rev (map snd pre)) calls lg) as [[v c'] lg'] eqn:Er.
  exists v, c', lg'. split; [exact Hs'|].
  apply (step_reduce tb sem input sem_total pre (rest ++ bot) s (tops rest) i calls lg p pw z v c' lg' Ht Ha Hpw);
    [congruence|apply top_app_bottom|now rewrite Hnt|exact Hz|exact Er].
Qed.

Lemma core cells sg p k la pr :
  wfp tb cells sg -> In (p, k, la) (items_of (tops cells)) -> nth_error g p = Some pr ->
  (p <> 0 -> forall v' i calls lg s'',
     trans tb (tops (skipn k cells)) (NT (lhs pr)) = Some s'' -> ttype (tok_at input i) = la ->
     Prog (mkc ((s'', v') :: skipn k cells ++ bot) i calls lg)) ->
  Claim cells (p, k, la).
Proof.
  intros Hwf Hin Hp K pr' X s' v i calls lg Hp' HX Htr Hla.
  rewrite Hp in Hp'. injection Hp' as <-.
  pose proof (tops_lt g tb an SH cells sg Hwf) as Hs0.
  destruct (first_seq_exact g an NUL (skipn (S k) (rhs pr)) la (ttype (tok_at input i))) as (y & Hy & Hhd).
  { intros Y HY. apply (x_prod_P g tb an XP _ _ _ _ _ Hs0 Hin Hp). eapply In_skipn; exact HY. }
  { intros n b Hn Hb. apply (x_first_P g tb an NUL XF _ _ _ _ _ Hs0 Hin Hp); [eapply In_skipn; exact Hn|exact Hb]. }
  { exact Hla. }
  (* run the completeness simulation of the rest of the body on a virtual input *)
  destruct (virtual_input _ i la y Hhd) as (in2 & w2 & tk & Hw2 & Hsk & Htok2 & Hla2).
  destruct (proj2 (der_wt g) _ _ Hy w2 Hw2) as [ts Hts].
  destruct (goto_spec g tb an VF _ _ _ _ _ _ Hin Hp HX) as (s'2 & Htr2 & Hin').
  rewrite Htr in Htr2. injection Htr2 as <-.
  set (st := (s', v) :: cells ++ bot). set (c := mkc st i calls lg).
  destruct (proj2 (simulation_steps g tb an sem in2 VF sem_total) _ _ _ Hts
              st s' p pr (S k) la i [tk] calls lg eq_refl Hin' Hp eq_refl Hsk Hla2)
    as [HA|[_ (m & c'' & sx & _ & Hst & Htx & Hax)]].
  2:{ (* production 0 inside the virtual tree: the tables accept earlier *)
      destruct (lock_progress in2 m c c'' Hst (eq_sym Htok2)) as [HP|[Hm' Hc']]; [exact HP|].
      exists m, c''. split; [exact Hm'|right]. split; [exact Hc'|].
      exists sx. split; [exact Htx|].
      rewrite Hc' in *. cbn [c c_i mkc] in *. rewrite Htok2 in Hax. exact Hax. }
  destruct (tevals tb sem ts calls lg) as [[vs c1] lg1] eqn:Ev.
  destruct (HA _ _ _ eq_refl) as (cells2 & s'' & Hlen2 & _ & Htop2 & Hitem & Hst).
  destruct (lock_progress in2 _ c _ Hst (eq_sym Htok2)) as [HP|[Hm' Hc']]; [exact HP|].
  (* the look-ahead was not consumed: [y] is empty, the item is complete, same look-ahead *)
  cbn [c c_i mkc] in Hc'.
  assert (Hw0 : w2 = []) by (destruct w2; [reflexivity|simpl in Hc'; lia]).
  subst w2. cbn [map] in Hw2. subst y. cbn [hd] in Hhd. cbn [length] in Hm'. rewrite Nat.add_0_r in Hm'.
  clear Hc' Hla2 Hsk Hst HA Hts.
  assert (Hk1 : S k + length (skipn (S k) (rhs pr)) = length (rhs pr)).
  { rewrite skipn_length, Nat.add_comm. apply Nat.sub_add, nth_error_Some. congruence. }
  rewrite Hk1 in Hitem.
  destruct (complete_spec g tb an VF _ _ _ _ _ Hitem Hp (proj2 (nth_error_None _ _) (le_n _)))
    as [[Hne Hact]|(_ & _ & Hact)]; rewrite Hhd in Hact.
  - (* reduce by [p], then the continuation *)
    destruct (item_prefix_p g tb an BW cells sg Hwf _ _ _ _ Hin Hp) as (Hkc & _ & Hin0).
    assert (Hstack : cells2 ++ st = (cells2 ++ (s', v) :: firstn k cells) ++ skipn k cells ++ bot).
    { unfold st. rewrite <- app_assoc. cbn [app]. f_equal. f_equal. now rewrite app_assoc, firstn_skipn. }
    rewrite Hstack in Htop2.
    destruct (reduce_step _ _ _ la _ _ _ c1 lg1 Htop2 Hact Hp Hne) with (2 := Hin0)
      as (s3 & v3 & c3 & lg3 & Htr3 & Hstep).
    { rewrite app_length. cbn [length]. rewrite firstn_length_le by exact Hkc. lia. }
    rewrite <- Hstack in Hstep.
    apply (Prog_steps _ c _ (steps_snoc _ _ _ _ _ _ _ Hm' Hstep) eq_refl).
    exact (K Hne _ _ _ _ _ Htr3 (eq_sym Hhd)).
  - (* the start production is complete: accept *)
    exists (sizes ts), (mkc (cells2 ++ st) i c1 lg1). split; [exact Hm'|right]. split; [reflexivity|].
    exists s''. split; [exact Htop2|exact Hact].
Qed.

Lemma continue_by cells' p pr la it :
  nth_error g p = Some pr -> just_by g an p la it = true -> Claim cells' it ->
  forall v' i calls lg s'',
    trans tb (tops cells') (NT (lhs pr)) = Some s'' -> ttype (tok_at input i) = la ->
    Prog (mkc ((s'', v') :: cells' ++ bot) i calls lg).
Proof.
  intros Hp Hj HC v' i calls lg s'' Htr Hty. destruct it as [[p1 k1] la1].
  destruct (just_by_P g an _ _ _ _ _ Hj) as (pr1 & prq & Hp1 & Hq & Hk1 & Hb).
  rewrite Hp in Hq. inversion Hq; subst prq.
  apply (HC pr1 (NT (lhs pr)) s'' v' i calls lg Hp1 Hk1 Htr). rewrite Hty. exact Hb.
Qed.

Lemma goto_progress cells sg p pr la :
  wfp tb cells sg -> (forall it, In it (items_of (tops cells)) -> Claim cells it) ->
  In (p, 0, la) (items_of (tops cells)) -> p <> 0 -> nth_error g p = Some pr ->
  forall v i calls lg s,
    trans tb (tops cells) (NT (lhs pr)) = Some s -> ttype (tok_at input i) = la ->
    Prog (mkc ((s, v) :: cells ++ bot) i calls lg).
Proof.
  intros Hwf HC Hin Hne Hp.
  destruct (justified _ _ _ (tops_lt g tb an SH _ _ Hwf) Hin Hne) as (it & Hit & Hj).
  exact (continue_by cells p pr la it Hp Hj (HC it Hit)).
Qed.

(** by induction on the height of the stack, and in each state along the order in which
    [x_closure] justifies the items *)
Theorem all_claims : forall cells sg, wfp tb cells sg ->
  forall it, In it (items_of (tops cells)) -> Claim cells it.
Proof.
  intros cells. induction cells as [cells IH] using (induction_ltof1 _ (@length _)).
  intros sg Hwf. pose proof (tops_lt g tb an SH cells sg Hwf) as Hs0.
  apply (just_list_ind g an (Claim cells) (items_of (tops cells))) with (acc := []).
  - intros q b it Hq Hit HP Hj. destruct it as [[p1 k1] la1].
    destruct (just_by_P g an _ _ _ _ _ Hj) as (pr1 & prq & Hp1 & Hpq & Hk1 & Hb).
    pose proof (closure_spec g tb an VF _ _ _ _ _ _ _ _ _ Hit Hp1 Hk1 Hpq eq_refl Hb) as Hin0.
    apply (core cells sg q 0 b prq Hwf Hin0 Hpq). intros _.
    exact (continue_by cells q prq b (p1, k1, la1) Hpq Hj HP).
  - apply (x_closure_P g tb an XCl _ Hs0).
  - intros it [].
  - auto.
  - (* kernel item: the continuation lives strictly lower in the stack *)
    intros p k la Hin. destruct (B_items _ _ _ BW _ _ _ _ Hin) as (pr & Hp & _).
    apply (core cells sg p (S k) la pr Hwf Hin Hp). intros Hne.
    destruct (item_prefix_p g tb an BW cells sg Hwf _ _ _ _ Hin Hp) as (Hk & _ & Hin0).
    pose proof (wfp_skipn tb cells sg Hwf (S k)) as Hwf'.
    apply (goto_progress _ _ p pr la Hwf'); [|exact Hin0|exact Hne|exact Hp].
    apply (IH (skipn (S k) cells)) with (2 := Hwf'). unfold ltof. rewrite skipn_length.
    exact (Nat.sub_lt _ _ Hk (Nat.lt_0_succ k)).
  - intros la Hin. destruct (B_items _ _ _ BW _ _ _ _ Hin) as (pr & Hp & _).
    apply (core cells sg 0 0 la pr Hwf Hin Hp). intros Hc. congruence.
Qed.

Lemma reduce_wfp cells sg i calls lg q :
  wfp tb cells sg ->
  action_at tb (tops cells) (ttype (tok_at input i)) = Some (Some (Reduce q)) ->
  exists prq s v c' lg', let cells' := skipn (length (rhs prq)) cells in
    nth_error g q = Some prq /\ q <> 0 /\
    In (q, 0, ttype (tok_at input i)) (items_of (tops cells')) /\
    trans tb (tops cells') (NT (lhs prq)) = Some s /\
    step tb sem input (mkc (cells ++ bot) i calls lg) = Some (mkc ((s, v) :: cells' ++ bot) i c' lg').
Proof.
  intros Hwf Hact. destruct (B_reduce _ _ _ BW _ _ _ Hact) as (Hq & prq & Hpq & Hin).
  destruct (item_prefix_p g tb an BW cells sg Hwf _ _ _ _ Hin Hpq) as (Hk & _ & Hin0).
  destruct (reduce_step (firstn (length (rhs prq)) cells) (skipn (length (rhs prq)) cells) (tops cells)
              (ttype (tok_at input i)) q prq i calls lg) as (s & v & c' & lg' & Htr & Hstep);
    [rewrite app_assoc, firstn_skipn; apply top_app_bottom|exact Hact|exact Hpq|exact Hq
    |apply firstn_length_le; exact Hk|exact Hin0|].
  rewrite app_assoc, firstn_skipn in Hstep. exists prq, s, v, c', lg'. cbv zeta. auto.
Qed.

Theorem action_progress cells sg i calls lg act :
  wfp tb cells sg ->
  action_at tb (tops cells) (ttype (tok_at input i)) = Some (Some act) ->
  Prog (mkc (cells ++ bot) i calls lg).
Proof.
  intros Hwf Hact. destruct act as [s'|q|].
  - exists 1, (mkc ((s', ATok (tok_at input i)) :: cells ++ bot) (S i) calls lg). split; [|left; reflexivity].
    cbn [steps]. rewrite (step_shift tb sem input _ (tops cells) i calls lg s' (top_app_bottom cells) Hact : step tb sem input (mkc _ i calls lg) = _).
    reflexivity.
  - destruct (reduce_wfp cells sg i calls lg q Hwf Hact) as (prq & s & v & c' & lg' & Hpq & Hq & Hin0 & Htr & Hstep).
    pose proof (wfp_skipn tb cells sg Hwf (length (rhs prq))) as Hwf'.
    apply (Prog_steps 1 _ (mkc ((s, v) :: skipn (length (rhs prq)) cells ++ bot) i c' lg'));
      [cbn [steps]; now rewrite Hstep|reflexivity|].
    exact (goto_progress _ _ q prq _ Hwf' (all_claims _ _ Hwf') Hin0 Hq Hpq v i c' lg' s Htr eq_refl).
  - exists 0, (mkc (cells ++ bot) i calls lg). split; [reflexivity|right]. split; [reflexivity|].
    exists (tops cells). split; [apply top_app_bottom|exact Hact].
Qed.

Definition wfc (c : cfg) : Prop :=
  (exists cells sg, c_st c = cells ++ bot /\ wfp tb cells sg) /\ c_i c <= length input.

Lemma mkc_eta c : c = mkc (c_st c) (c_i c) (c_calls c) (c_log c).
Proof. destruct c; reflexivity. Qed.

Lemma step_wfc c c' : wfc c -> step tb sem input c = Some c' -> wfc c'.
Proof.
  intros [(cells & sg & Hst & Hwf) Hi] H.
  destruct (step_some_action _ _ _ _ _ H) as (s & act & Ht & Ha & Hacc).
  rewrite Hst, top_app_bottom in Ht. injection Ht as <-.
  rewrite (mkc_eta c), Hst in H. destruct act as [s'|q|]; [| |now destruct Hacc].
  - rewrite (step_shift tb sem input _ _ _ _ _ s' (top_app_bottom cells) Ha : step tb sem input (mkc _ _ _ _) = _) in H. injection H as <-.
    split; cbn [mkc c_st c_i].
    + exists ((s', ATok (tok_at input (c_i c))) :: cells), (T (ttype (tok_at input (c_i c))) :: sg).
      split; [reflexivity|]. constructor; [exact Hwf|]. cbn [trans]. now rewrite Ha.
    + exact (tok_at_lt _ _ (B_shift _ _ _ BW _ _ _ Ha)).
  - destruct (reduce_wfp cells sg (c_i c) (c_calls c) (c_log c) q Hwf Ha)
      as (prq & s & v & c1 & lg1 & _ & _ & _ & Htr & Hstep).
    rewrite Hstep in H. injection H as <-. split; cbn [mkc c_st c_i]; [|exact Hi].
    exists ((s, v) :: skipn (length (rhs prq)) cells), (NT (lhs prq) :: skipn (length (rhs prq)) sg).
    split; [reflexivity|]. constructor; [apply wfp_skipn; exact Hwf|exact Htr].
Qed.

Lemma steps_wfc n : forall c c', wfc c -> steps tb sem input n c = Some c' -> wfc c'.
Proof. exact (steps_preserve tb sem input wfc step_wfc n). Qed.

Definition halts (c : cfg) : Prop :=
  exists F, forall fuel, F <= fuel -> r_out (crunc tb sem input fuel c) <> PFuel.

Lemma halts_steps n c c' : steps tb sem input n c = Some c' -> halts c' -> halts c.
Proof.
  intros Hst [F HF]. exists (n + F). intros fuel Hf.
  replace fuel with (n + (fuel - n)) by lia. rewrite (crunc_steps tb sem input _ _ _ _ Hst).
  apply HF. lia.
Qed.

Lemma halts_accepting c : accepting tb input c -> halts c.
Proof.
  intros (s & Ht & Ha). exists 1. intros [|f] Hf; [destruct (Nat.nle_succ_0 _ Hf)|].
  destruct (accept_run tb sem input c s Ht Ha) as (v & _ & Hr). rewrite Hr. discriminate.
Qed.

(** by induction on the number of tokens left: a non-nil action consumes the look-ahead before the
    next error ([action_progress]); a nil action is followed by a recovery that resumes, not
    earlier in the input, at a look-ahead with a non-nil action, or ends the parse *)
Theorem wfc_halts : forall m c, wfc c -> S (length input) - c_i c <= m -> halts c.
Proof.
  induction m as [|m IH]; intros c Hw Hm.
  { destruct Hw as [_ Hi]. lia. }
  assert (Hnonnil : forall c2 cells sg act,
            wfc c2 -> c_i c <= c_i c2 -> c_st c2 = cells ++ bot -> wfp tb cells sg ->
            action_at tb (tops cells) (ttype (tok_at input (c_i c2))) = Some (Some act) -> halts c2).
  { intros c2 cells sg act Hw2 Hle Hst Hwf Hact.
    destruct (action_progress cells sg (c_i c2) (c_calls c2) (c_log c2) act Hwf Hact) as (n & c' & Hn & Hc').
    rewrite <- Hst, <- mkc_eta in Hn.
    apply (halts_steps n c2 c' Hn).
    pose proof (steps_wfc n _ _ Hw2 Hn) as Hw'.
    destruct Hc' as [Hc'|[_ Hacc]]; [|apply halts_accepting; exact Hacc].
    cbn [c_i mkc] in Hc'. apply IH; [exact Hw'|]. destruct Hw' as [_ Hi']. lia. }
  pose proof Hw as [(cells & sg & Hst & Hwf) Hi].
  destruct (action_at_some g tb an SH (tops cells) (ttype (tok_at input (c_i c))))
    as [[act|] Hact]; [eapply tops_lt; eauto using SH|exact (tok_type_lt g tb an SH input INR _)| |].
  { exact (Hnonnil c cells sg act Hw (le_n _) Hst Hwf Hact). }
  assert (Hrun : forall f, crunc tb sem input (S f) c = _) by
    (intros f; unfold crunc; rewrite Hst;
     exact (run_nil_action tb input sem f _ _ _ _ _ _ (top_app_bottom cells) Hact)).
  destruct (error_step tb input (S (length input)) (cells ++ bot) (tok_at input (c_i c)) (S (c_i c)))
    as [st' next' pos'|st' pos'|code|] eqn:Ee;
    [| |destruct (error_step_no_panic g tb an input SH _ _ _ _ _ Hwf Ee)|destruct (error_step_not_fuel _ _ _ _ _ Ee)].
  - apply error_step_recovered in Ee.
    destruct (recovers_resumes tb input _ _ _ _ _ _ Hwf Ee)
      as (cells' & sg' & j & act & -> & Hwf' & -> & -> & Hij & Hj & Ha').
    destruct (Hnonnil (mkc (cells' ++ bot) j (c_calls c) (c_log c)) cells' sg' act) as [F HF];
      [split; [exists cells', sg'; split; [reflexivity|exact Hwf']|exact (Hj Hi)]|exact Hij|reflexivity
      |exact Hwf'|exact Ha'|].
    exists (S F). intros [|f] Hf; [destruct (Nat.nle_succ_0 _ Hf)|]. rewrite Hrun. exact (HF f (le_S_n _ _ Hf)).
  - apply error_step_not_recovered, gives_up_top in Ee. destruct Ee as [s Hs]. exists 1. intros [|f] Hf; [destruct (Nat.nle_succ_0 _ Hf)|].
    rewrite Hrun. cbn [r_out]. unfold mk_error. rewrite Hs. discriminate.
Qed.

Theorem terminates_total :
  exists fuel0, forall fuel, fuel0 <= fuel -> r_out (parse tb sem input fuel) <> PFuel.
Proof.
  assert (Hw : wfc cfg0).
  { split; [exists [], []; split; [reflexivity|constructor]|apply Nat.le_0_l]. }
  destruct (wfc_halts (S (length input)) cfg0 Hw) as [F HF]; [apply le_n|].
  exists F. intros fuel Hf. rewrite parse_crunc. apply HF. exact Hf.
Qed.

End Term.

(** the control flow does not depend on attribute values: a failing action only ends the parse
    earlier *)
Definition sem_tot (sem : nat -> nat -> list attr -> option attr) : nat -> nat -> list attr -> option attr :=
  fun i p kids => match sem i p kids with Some a => Some a | None => Some ANil end.

Lemma sem_tot_total sem : forall i p kids, sem_tot sem i p kids <> None.
Proof. intros i p kids. unfold sem_tot. destruct (sem i p kids); discriminate. Qed.

Lemma run_fuel_sem_tot tb sem input : forall fuel st next pos calls log,
  r_out (run tb sem input fuel st next pos calls log) = PFuel ->
  r_out (run tb (sem_tot sem) input fuel st next pos calls log) = PFuel.
Proof.
  induction fuel as [|fuel IH]; intros st next pos calls log; [reflexivity|]. cbn [run].
  destruct (top st) as [s|]; [|exact id].
  destruct (action_at tb s (ttype next)) as [[[s'|p|]|]|]; [apply IH| |exact id| |exact id].
  - destruct (nth_error (t_prods tb) p) as [pw|]; [|exact id].
    destruct (length st <? p_len pw); [exact id|].
    destruct (p_act pw); [unfold sem_tot; destruct (sem calls p _) as [a|]|].
    1, 3: destruct (top (skipn (p_len pw) st)) as [s0|]; [|exact id];
      destruct (goto_at tb s0 (p_nt pw)) as [gz|]; [|exact id];
      destruct (gz <? 0)%Z; [exact id|apply IH].
    cbn [r_out]. unfold mk_error. destruct (top (skipn (p_len pw) st)); discriminate.
  - destruct (error_step tb input (S (length input)) st next pos); [apply IH|exact id..].
Qed.

(** the canonicity checks used here (a sub-conjunction of [x_checks] of Exact.v) *)
Definition x_canon (g : grammar) (tb : tables) (an : annot) : bool :=
  x_null g an && x_first g tb an && x_prod g tb an && x_closure g tb an.

Lemma x_canon_P g tb an : x_canon g tb an = true ->
  ((x_null g an = true /\ x_first g tb an = true) /\ x_prod g tb an = true) /\ x_closure g tb an = true.
Proof.
  intros H. apply andb_prop in H. destruct H as [H XCl]. apply andb_prop in H. destruct H as [H XP].
  apply andb_prop in H. auto.
Qed.

Lemma x_checks_canon g tb an : x_checks g tb an = true -> x_canon g tb an = true.
Proof.
  unfold x_checks, x_canon. intros H. apply andb_prop in H. destruct H as [H XCl].
  do 2 (apply andb_prop in H; destruct H as [H _]). now rewrite H, XCl.
Qed.

(** C07, termination: with conflict-free canonical LR(1) tables of the full grammar (error
    alternatives included) the parser returns on EVERY token list, for arbitrary (possibly
    failing) user actions: from some amount of fuel on the outcome is never [PFuel]; by
    [C07_no_panic] it is [POk] or [PErr]. *)
Theorem C07_terminates :
  forall g tb an sem input,
    valid_backward g tb an = true -> valid_forward g tb an = true -> x_canon g tb an = true ->
    Forall (fun t => ttype t < nterms tb) input ->
    exists fuel0, forall fuel, fuel0 <= fuel ->
      exists res, r_out (parse tb sem input fuel) = res /\ ((exists v, res = POk v) \/ (exists e, res = PErr e)).
Proof.
  intros g tb an sem input VB VF XC INR.
  destruct (x_canon_P _ _ _ XC) as [[[XN XF] XP] XCl].
  destruct (terminates_total g tb an (sem_tot sem) input VF VB XN XF XP XCl (sem_tot_total sem) INR)
    as [fuel0 H0].
  exists fuel0. intros fuel Hf. eexists. split; [reflexivity|].
  destruct (r_out (parse tb sem input fuel)) as [v|e|c|] eqn:E; eauto.
  - exfalso. exact (C07_no_panic g tb an sem input fuel c VB INR E).
  - exfalso. apply (H0 fuel Hf). apply run_fuel_sem_tot. exact E.
Qed.

(** C07, progress after recovery: the configuration produced by a successful recovery makes
    Shift/Reduce moves only until its look-ahead (the first acceptable token) has been shifted
    or the input accepted: the next error, if any, is about a LATER token. *)
Theorem C07_recovery_progress :
  forall g tb an sem input,
    valid_backward g tb an = true -> valid_forward g tb an = true -> x_canon g tb an = true ->
    (forall i p kids, sem i p kids <> None) ->
    Forall (fun t => ttype t < nterms tb) input ->
    forall cells sg i st' next' pos' calls lg,
      wfp tb cells sg ->
      recovers tb input (cells ++ [(0, ANil)]) (tok_at input i) (S i) st' next' pos' ->
      next' = tok_at input (pos' - 1) /\ i <= pos' - 1 /\ exists n c', steps tb sem input n (mkc st' (pos' - 1) calls lg) = Some c' /\ (c_i c' = S (pos' - 1) \/ (c_i c' = pos' - 1 /\ accepting tb input c')).
Proof.
  intros g tb an sem input VB VF XC Hs INR cells sg i st' next' pos' calls lg Hwf Hr.
  destruct (x_canon_P _ _ _ XC) as [[[XN XF] XP] XCl].
  destruct (recovers_resumes tb input _ _ _ _ _ _ Hwf Hr)
    as (cells' & sg' & j & act & -> & Hwf' & -> & -> & Hij & _ & Ha).
  cbn [Nat.sub]. rewrite Nat.sub_0_r. split; [reflexivity|]. split; [exact Hij|].
  exact (action_progress g tb an sem input VF VB XN XF XP XCl Hs cells' sg' j calls lg act Hwf' Ha).
Qed.

Print Assumptions action_progress.
Print Assumptions terminates_total.
Print Assumptions C07_terminates.
Print Assumptions C07_recovery_progress.
