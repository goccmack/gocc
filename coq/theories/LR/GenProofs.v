(** Proofs about the executable models of gocc's LR(1) generator (Gen.v; GenAuto.v for mode -a), FOR EVERY GRAMMAR,
    with no per-grammar kernel evaluation: what the model outputs is the canonical LR(1) collection and passes the
    validators, hence C02 for the generated parsers (under the side conditions the statements carry); the internal
    fuels are adequate, so that with enough fuel the model yields tables iff the canonical collection has no conflict;
    in mode -a every cell is the winner of [row_action], and the conflicts of the canonical collection decide what gocc
    announces and its exit status. *)
From Coq Require Import List Arith ZArith Bool Lia.
From Gocc Require LR.Trees LR.Sound LR.ErrorPos.
From Gocc Require Import LR.Parse LR.Validate LR.ValidateProofs LR.Complete LR.Derive LR.Exact
                         LR.Resolve LR.ResolveProofs LR.Canonical LR.CanonicalProofs LR.Gen LR.GenAuto.
Import ListNotations.

Lemma all_some_map {A} : forall (l : list (option A)) r, all_some l = Some r -> l = map Some r.
Proof.
  induction l as [|[x|] l IH]; intros r H; simpl in H.
  - inversion H. reflexivity.
  - destruct (all_some l) as [r'|]; [|discriminate]. inversion H; subst. simpl. f_equal. now apply IH.
  - discriminate.
Qed.

Lemma all_some_map_seq {A} (f : nat -> option A) n r :
  all_some (map f (seq 0 n)) = Some r ->
  length r = n /\ forall i, i < n -> exists x, f i = Some x /\ nth_error r i = Some x.
Proof.
  intros H. apply all_some_map in H.
  assert (Hl : length r = n).
  { apply (f_equal (@length _)) in H. rewrite !map_length, seq_length in H. auto. }
  split; [exact Hl|]. intros i Hi.
  assert (E : nth_error (map f (seq 0 n)) i = Some (f i)).
  { rewrite nth_error_map. rewrite (nth_error_seq0 _ _ Hi). reflexivity. }
  rewrite H, nth_error_map in E. destruct (nth_error r i) as [x|] eqn:Er; simpl in E; [|discriminate].
  exists x. inversion E. auto.
Qed.

Lemma all_some_None_ex {A} : forall (l : list (option A)), all_some l = None -> In None l.
Proof.
  induction l as [|[x|] l IH]; simpl; intros H; [discriminate| |now left].
  destruct (all_some l); [discriminate|]. right. now apply IH.
Qed.

Lemma all_some_map_seq_None {A} (f : nat -> option A) n :
  all_some (map f (seq 0 n)) = None -> exists i, i < n /\ f i = None.
Proof.
  intros H. apply all_some_None_ex in H. apply in_map_iff in H. destruct H as (i & Hf & Hi).
  apply in_seq in Hi. exists i. split; [lia|assumption].
Qed.

Lemma nth_error_snoc {A} (l : list A) x s y :
  nth_error (l ++ [x]) s = Some y -> nth_error l s = Some y \/ (s = length l /\ y = x).
Proof.
  intros H. destruct (Nat.lt_ge_cases s (length l)) as [Hs|Hs]; [left; now rewrite nth_error_app1 in H|right].
  rewrite nth_error_app2 in H by assumption. destruct (s - length l) as [|[|d]] eqn:E; try discriminate.
  injection H as <-. split; [lia|reflexivity].
Qed.

Lemma combine_map_fst {A B C} (f : A * B -> C) : forall (l : list B) (js : list A) c b,
  length js = length l -> In (c, b) (combine (map f (combine js l)) l) -> exists j, c = f (j, b) /\ In b l.
Proof.
  induction l as [|y l IH]; intros js c b Hl Hin.
  - destruct js; simpl in Hin; destruct Hin.
  - destruct js as [|j js]; [discriminate|]. simpl in Hin. destruct Hin as [E|Hin].
    + inversion E; subst. exists j. split; [reflexivity|now left].
    + destruct (IH js c b) as (j' & H1 & H2); [simpl in Hl; lia|assumption|].
      exists j'. split; [assumption|now right].
Qed.

Lemma flat_map_const_length {A B} (f : A -> list B) n l :
  (forall a, length (f a) = n) -> length (flat_map f l) = length l * n.
Proof. intros H. induction l as [|a l IH]; simpl; [reflexivity|]. now rewrite app_length, H, IH. Qed.

Lemma NoDup_snoc {A} (l : list A) a : NoDup l -> ~ In a l -> NoDup (l ++ [a]).
Proof. intros H Hn. apply (NoDup_Add (Add_app a l [])). rewrite app_nil_r. auto. Qed.

Lemma filter_length_mono {A} (f f' : A -> bool) l :
  (forall x, In x l -> f x = true -> f' x = true) -> length (filter f l) <= length (filter f' l).
Proof.
  induction l as [|x l IH]; intros H; simpl; [lia|].
  assert (IH' : length (filter f l) <= length (filter f' l)) by (apply IH; intros y Hy; apply H; now right).
  destruct (f x) eqn:E.
  - rewrite (H x (or_introl eq_refl) E). simpl. lia.
  - destruct (f' x); simpl; lia.
Qed.

Lemma filter_length_strict {A} (f f' : A -> bool) l x :
  (forall y, In y l -> f y = true -> f' y = true) -> In x l -> f x = false -> f' x = true ->
  length (filter f l) < length (filter f' l).
Proof.
  induction l as [|y l IH]; intros H Hin Hf Hf'; [destruct Hin|]. simpl.
  assert (Hm : length (filter f l) <= length (filter f' l)) by (apply filter_length_mono; intros z Hz; apply H; now right).
  destruct Hin as [->|Hin].
  - rewrite Hf, Hf'. simpl. lia.
  - assert (IH' : length (filter f l) < length (filter f' l)) by (apply IH; auto; intros z Hz; apply H; now right).
    destruct (f y) eqn:E.
    + rewrite (H y (or_introl eq_refl) E). simpl. lia.
    + destruct (f' y); simpl; lia.
Qed.

Lemma filter_length_le {A} (f : A -> bool) l : length (filter f l) <= length l.
Proof. induction l as [|y l IH]; simpl; [lia|]. destruct (f y); simpl; lia. Qed.

Lemma filter_length_all {A} (f : A -> bool) l : length (filter f l) = length l -> forall x, In x l -> f x = true.
Proof.
  induction l as [|y l IH]; intros H x Hin; [destruct Hin|]. simpl in H.
  pose proof (filter_length_le f l) as Hle.
  destruct (f y) eqn:E; simpl in H.
  - destruct Hin as [<-|Hin]; [assumption|]. apply IH; [lia|assumption].
  - lia.
Qed.

Lemma forallb_false_ex {A} (f : A -> bool) l : forallb f l = false -> exists x, In x l /\ f x = false.
Proof.
  induction l as [|y l IH]; simpl; [discriminate|]. destruct (f y) eqn:E; simpl.
  - intros H. destruct (IH H) as (x & H1 & H2). exists x. auto.
  - intros _. exists y. auto.
Qed.

Lemma filter_none {A} (f : A -> bool) l : (forall x, In x l -> f x = false) -> filter f l = [].
Proof.
  induction l as [|x l IH]; intros H; simpl; [reflexivity|].
  rewrite (H x (or_introl eq_refl)). apply IH. intros y Hy. apply H. now right.
Qed.

Lemma bools_eqb_eq a b : bools_eqb a b = true -> a = b.
Proof.
  unfold bools_eqb. rewrite andb_true_iff. intros [Hl Hc]. apply Nat.eqb_eq in Hl.
  revert b Hl Hc. induction a as [|x a IH]; intros [|y b] Hl Hc; simpl in *; try discriminate; [reflexivity|].
  apply andb_true_iff in Hc. destruct Hc as [H1 H2]. apply eqb_prop in H1. subst y. f_equal. apply IH; auto.
Qed.

Lemma mem_sym_In X l : mem_sym X l = true <-> In X l.
Proof.
  unfold mem_sym. rewrite existsb_exists. split.
  - intros [Y [Hin HY]]. apply sym_eqb_eq in HY. now subst.
  - intros H. exists X. split; [assumption|now apply sym_eqb_eq].
Qed.

Lemma flag_iter_length g tf nn k : length (flag_iter g tf nn (S k)) = nn.
Proof. simpl. unfold flag_step. now rewrite map_length, seq_length. Qed.

Lemma cfirst_iter_length g an nn k : length (cfirst_iter g an nn (S k)) = nn.
Proof. simpl. unfold cfirst_step. now rewrite map_length, seq_length. Qed.

Lemma In_dedup a l : In a l -> In a (dedup l).
Proof.
  induction l as [|x l IH]; simpl; [auto|]. intros [->|H].
  - destruct (mem_nat a (dedup l)) eqn:E; [now apply mem_nat_In|now left].
  - destruct (mem_nat x (dedup l)); [auto|right; auto].
Qed.

Lemma prods_of_inv g B q : In q (prods_of g B) -> exists prq, nth_error g q = Some prq /\ lhs prq = B.
Proof.
  unfold prods_of. rewrite in_map_iff. intros ([q' prq] & E & Hin). simpl in E. subst q'.
  apply filter_In in Hin. destruct Hin as [Hin Hl]. simpl in Hl. apply Nat.eqb_eq in Hl.
  exists prq. split; [|assumption].
  apply In_nth_error in Hin. destruct Hin as [i Hi].
  assert (Hlt : i < length (combine (seq 0 (length g)) g)) by (apply nth_error_Some; congruence).
  rewrite combine_length, seq_length, Nat.min_id in Hlt.
  destruct (nth_error g i) as [pr|] eqn:Eg; [|apply nth_error_None in Eg; lia].
  rewrite (nth_error_combine _ _ _ _ _ (nth_error_seq0 _ _ Hlt) Eg) in Hi. inversion Hi; subst. assumption.
Qed.

Section FirstExt.
Variable g : grammar.
Variable nn : nat.

Lemma first_rhs_ext an an' F gamma : a_nullable an = a_nullable an' -> first_rhs an F gamma = first_rhs an' F gamma.
Proof.
  intros E. induction gamma as [|[a|m] gamma IH]; simpl; auto.
  unfold nullable_nt. rewrite E, IH. reflexivity.
Qed.

Lemma cfirst_step_ext an an' F : a_nullable an = a_nullable an' -> cfirst_step g an nn F = cfirst_step g an' nn F.
Proof.
  intros E. unfold cfirst_step. apply map_ext. intros n. f_equal. apply flat_map_ext. intros pr.
  destruct (Nat.eqb (lhs pr) n); [|reflexivity]. now apply first_rhs_ext.
Qed.

Lemma cfirst_iter_ext an an' k : a_nullable an = a_nullable an' -> cfirst_iter g an nn k = cfirst_iter g an' nn k.
Proof. intros E. induction k as [|k IH]; simpl; [reflexivity|]. rewrite IH. now apply cfirst_step_ext. Qed.

Lemma cfirst_step_In an F a n : In a (nth n (cfirst_step g an nn F) []) <->
  n < nn /\ exists pr, In pr g /\ lhs pr = n /\ In a (first_rhs an F (rhs pr)).
Proof.
  unfold cfirst_step. destruct (Nat.lt_ge_cases n nn) as [Hn|Hn].
  - rewrite nth_map_seq by assumption. split.
    + intros H. apply dedup_In in H. apply in_flat_map in H. destruct H as (pr & Hpr & H).
      destruct (Nat.eqb (lhs pr) n) eqn:E; [|destruct H]. apply Nat.eqb_eq in E.
      split; [assumption|]. exists pr. auto.
    + intros (_ & pr & Hpr & Hl & H). apply In_dedup. apply in_flat_map. exists pr. split; [assumption|].
      subst n. now rewrite Nat.eqb_refl.
  - rewrite nth_overflow by (now rewrite map_length, seq_length). split; [intros []|]. intros [H _]. lia.
Qed.

End FirstExt.

(** [length g] rounds always reach the fixed point: every round before it adds a nonterminal, hence covers
    one more production ([dcount]) *)
Section Stab.
Variable g : grammar.
Variable nn : nat.
Variable Phi : (nat -> bool) -> prod -> bool.
Hypothesis Phi_mono : forall Y Y' pr, (forall n, Y n = true -> Y' n = true) -> Phi Y pr = true -> Phi Y' pr = true.
Variable X : nat -> nat -> bool.
Hypothesis X0 : forall n, X 0 n = false.
Hypothesis XS : forall k n, X (S k) n = true <-> n < nn /\ exists pr, In pr g /\ lhs pr = n /\ Phi (X k) pr = true.

Lemma X_mono : forall k n, X k n = true -> X (S k) n = true.
Proof.
  induction k as [|k IH]; intros n H; [rewrite X0 in H; discriminate|].
  apply XS in H. destruct H as (Hn & pr & Hpr & Hl & Hp). apply XS. split; [assumption|].
  exists pr. split; [assumption|]. split; [assumption|]. eapply Phi_mono; eauto.
Qed.

Definition dcount (k : nat) : nat := length (filter (fun pr => X k (lhs pr)) g).
Definition stable (k : nat) : Prop := forall n, X (S k) n = true -> X k n = true.

Lemma stable_from j : stable j -> forall k, j <= k -> stable k.
Proof.
  intros Hj k Hk. induction Hk as [|k _ Hs]; [assumption|].
  intros n H. apply XS in H. destruct H as (Hn & pr & Hpr & Hl & Hp). apply XS. split; [assumption|].
  exists pr. split; [assumption|]. split; [assumption|]. eapply Phi_mono; [|exact Hp]. exact Hs.
Qed.

Lemma stable_dec k : stable k \/ exists n, X (S k) n = true /\ X k n = false.
Proof.
  destruct (forallb (fun n => implb (X (S k) n) (X k n)) (seq 0 nn)) eqn:E.
  - left. intros n H. rewrite forallb_forall in E.
    assert (Hn : n < nn) by (apply XS in H; apply H).
    specialize (E n). rewrite H in E. simpl in E. apply E. apply in_seq. lia.
  - right. apply forallb_false_ex in E. destruct E as (n & _ & E). exists n.
    destruct (X (S k) n), (X k n); simpl in E; try discriminate. auto.
Qed.

Lemma progress : forall k, (exists j, j < k /\ stable j) \/ k <= dcount k.
Proof.
  induction k as [|k IH]; [right; lia|].
  destruct IH as [(j & Hj & Hs)|Hd]; [left; exists j; split; [lia|assumption]|].
  destruct (stable_dec k) as [Hs|(n & H1 & H2)]; [left; exists k; split; [lia|assumption]|].
  right. apply XS in H1 as H1'. destruct H1' as (_ & pr & Hpr & Hl & _). subst n.
  assert (dcount k < dcount (S k)); [|lia].
  unfold dcount. apply (filter_length_strict _ _ g pr); auto.
  intros y _. apply X_mono.
Qed.

Theorem stab_reached : stable (length g).
Proof.
  destruct (progress (length g)) as [(j & Hj & Hs)|Hd].
  - apply (stable_from j Hs). lia.
  - assert (E : dcount (length g) = length g).
    { pose proof (filter_length_le (fun pr => X (length g) (lhs pr)) g) as Hle. unfold dcount in *. lia. }
    intros n H. apply XS in H. destruct H as (_ & pr & Hpr & <- & _).
    apply (filter_length_all _ _ E pr Hpr).
Qed.

Corollary stab_eq n : X (S (length g)) n = X (length g) n.
Proof.
  destruct (X (S (length g)) n) eqn:E1.
  - symmetry. now apply stab_reached.
  - destruct (X (length g) n) eqn:E2; [|reflexivity]. apply X_mono in E2. congruence.
Qed.
End Stab.

Lemma bools_eqb_refl a : bools_eqb a a = true.
Proof.
  unfold bools_eqb. rewrite Nat.eqb_refl. simpl. induction a as [|x a IH]; [reflexivity|].
  simpl. rewrite IH. now destruct x.
Qed.

Section FirstStable.
Variable g : grammar.
Variable nn : nat.
Hypothesis GNE : g <> [].

Definition phi_null (Y : nat -> bool) (pr : prod) : bool :=
  forallb (fun X => match X with T _ => false | NT m => Y m end) (rhs pr).

Lemma phi_null_mono Y Y' pr : (forall n, Y n = true -> Y' n = true) -> phi_null Y pr = true -> phi_null Y' pr = true.
Proof.
  unfold phi_null. intros H H1. rewrite forallb_forall in H1. apply forallb_forall.
  intros [a|m] HX; specialize (H1 _ HX); simpl in *; auto.
Qed.

Definition xnull (k n : nat) : bool := nth n (flag_iter g false nn k) false.

Lemma xnull_S k n : xnull (S k) n = true <-> n < nn /\ exists pr, In pr g /\ lhs pr = n /\ phi_null (xnull k) pr = true.
Proof.
  unfold xnull. simpl. unfold flag_step. destruct (Nat.lt_ge_cases n nn) as [Hn|Hn].
  - rewrite nth_map_seq by assumption. rewrite existsb_exists. split.
    + intros (pr & Hpr & H). apply andb_true_iff in H. destruct H as [H1 H2]. apply Nat.eqb_eq in H1.
      split; [assumption|]. exists pr. auto.
    + intros (_ & pr & Hpr & Hl & H). exists pr. split; [assumption|]. apply andb_true_iff.
      split; [now apply Nat.eqb_eq|exact H].
  - rewrite nth_overflow by (now rewrite map_length, seq_length). split; [discriminate|]. intros [H _]. lia.
Qed.

Lemma xnull_0 n : xnull 0 n = false.
Proof. unfold xnull. simpl. now destruct n. Qed.

Lemma gen_nullable_stable : flag_step g false nn (gen_nullable g nn) = gen_nullable g nn.
Proof.
  unfold gen_nullable. destruct (length g) as [|L] eqn:EL; [destruct g; [congruence|discriminate]|].
  apply (nth_ext _ _ false false).
  - change (flag_step g false nn (flag_iter g false nn (S L))) with (flag_iter g false nn (S (S L))).
    now rewrite !flag_iter_length.
  - intros n _. rewrite <- EL.
    exact (stab_eq g nn phi_null phi_null_mono xnull xnull_0 xnull_S n).
Qed.

(** FIRST sets, one terminal at a time *)
Variable an : annot.

Fixpoint in_rhs (a : nat) (Y : nat -> bool) (gamma : list sym) : bool :=
  match gamma with
  | [] => false
  | T b :: _ => Nat.eqb b a
  | NT m :: rest => Y m || (nullable_nt an m && in_rhs a Y rest)
  end.

Lemma in_rhs_mono a Y Y' : (forall n, Y n = true -> Y' n = true) ->
  forall gamma, in_rhs a Y gamma = true -> in_rhs a Y' gamma = true.
Proof.
  intros H. induction gamma as [|[b|m] gamma IH]; simpl; auto.
  intros E. apply orb_prop in E. destruct E as [E|E]; [now rewrite (H _ E)|].
  apply andb_prop in E. destruct E as [-> E]. rewrite (IH E). apply orb_true_r.
Qed.

Lemma in_rhs_spec a F : forall gamma,
  In a (first_rhs an F gamma) <-> in_rhs a (fun m => mem_nat a (nth m F [])) gamma = true.
Proof.
  induction gamma as [|[b|m] gamma IH]; simpl.
  - split; [intros []|discriminate].
  - rewrite Nat.eqb_eq. split; [intros [H|[]]; assumption|intros H; now left].
  - destruct (mem_nat a (nth m F [])) eqn:E; simpl.
    + split; [reflexivity|]. intros _. apply in_or_app. left. now apply mem_nat_In.
    + (* [m] nullable: both directions go to the rest of the body; not nullable: both sides are empty *)
      destruct (nullable_nt an m); simpl; (split; [intros H|intros H; apply in_or_app; right]).
      * apply IH. apply in_app_or in H. destruct H as [H|H]; [|exact H]. apply mem_nat_In in H. congruence.
      * now apply IH.
      * apply in_app_or in H. destruct H as [H|[]]. apply mem_nat_In in H. congruence.
      * discriminate.
Qed.

Definition xfirst (a k n : nat) : bool := mem_nat a (nth n (cfirst_iter g an nn k) []).

Lemma xfirst_0 a n : xfirst a 0 n = false.
Proof. unfold xfirst. simpl. now destruct n. Qed.

Lemma xfirst_S a k n : xfirst a (S k) n = true <->
  n < nn /\ exists pr, In pr g /\ lhs pr = n /\ in_rhs a (xfirst a k) (rhs pr) = true.
Proof.
  unfold xfirst at 1. simpl. rewrite mem_nat_In, cfirst_step_In.
  split; intros (Hn & pr & Hpr & Hl & H); (split; [assumption|]); exists pr; (split; [assumption|]);
    (split; [assumption|]); now apply in_rhs_spec.
Qed.

Lemma cfirst_stable n a :
  In a (nth n (cfirst_step g an nn (cfirst_iter g an nn (length g))) []) -> In a (nth n (cfirst_iter g an nn (length g)) []).
Proof.
  intros H. apply mem_nat_In.
  change (xfirst a (length g) n = true).
  rewrite <- (stab_eq g nn (fun Y pr => in_rhs a Y (rhs pr)) (fun Y Y' pr HY => in_rhs_mono a Y Y' HY (rhs pr))
               (xfirst a) (xfirst_0 a) (xfirst_S a) n).
  unfold xfirst. simpl. now apply mem_nat_In.
Qed.

End FirstStable.

(** [GenFirstUnstable] is impossible *)
Theorem gen_first_ok g nn : g <> [] -> gen_first g nn <> None.
Proof.
  intros GNE. unfold gen_first. replace (gen_first_stable g nn) with true; [discriminate|]. symmetry.
  unfold gen_first_stable. rewrite (gen_nullable_stable g nn GNE), bools_eqb_refl. simpl.
  apply forallb_forall. intros n _. apply forallb_forall. intros a Ha. apply mem_nat_In.
  exact (cfirst_stable g nn (an_null g nn) n a Ha).
Qed.

Section FirstP.
Variable g : grammar.
Variable nn : nat.
Variable N : list bool.
Variable F : list (list nat).
Hypothesis GF : gen_first g nn = Some (N, F).
Hypothesis GNE : g <> [].
Hypothesis LHS : forall pr, In pr g -> lhs pr < nn.

Variable an : annot.
Hypothesis AN : a_nullable an = N.
Hypothesis AF : a_first an = F.

Lemma GF_parts : N = gen_nullable g nn /\ F = gen_first_sets g nn /\ gen_first_stable g nn = true.
Proof.
  unfold gen_first in GF. destruct (gen_first_stable g nn); [|discriminate]. inversion GF. auto.
Qed.

Lemma N_length : length N = nn.
Proof.
  destruct GF_parts as (-> & _). unfold gen_nullable. destruct g as [|pr0 g']; [congruence|].
  apply flag_iter_length.
Qed.

Lemma F_length : length F = nn.
Proof.
  destruct GF_parts as (_ & -> & _). unfold gen_first_sets. destruct g as [|pr0 g']; [congruence|].
  apply cfirst_iter_length.
Qed.

Lemma N_stable : flag_step g false nn N = N.
Proof. destruct GF_parts as (-> & _). exact (gen_nullable_stable g nn GNE). Qed.

Lemma F_stable n a : In a (nth n (cfirst_step g an nn F) []) -> In a (nth n F []).
Proof.
  destruct GF_parts as (EN & -> & _). rewrite (cfirst_step_ext g nn an (an_null g nn)); [|simpl; now rewrite AN].
  apply cfirst_stable.
Qed.

Lemma flag_rhs_nullable gamma : flag_rhs false N gamma = forallb (nullable_sym an) gamma.
Proof.
  unfold flag_rhs. induction gamma as [|[a|m] gamma IH]; simpl; [reflexivity|reflexivity|].
  rewrite IH. unfold nullable_nt. now rewrite AN.
Qed.

Lemma first_closed_of_rhs n : forall gamma,
  (forall a, In a (first_rhs an F gamma) -> In a (nth n F [])) -> first_closed_rhs an n gamma = true.
Proof.
  induction gamma as [|X gamma IH]; intros H; simpl; [reflexivity|].
  apply andb_true_iff. split.
  - apply forallb_forall. intros a Ha. apply mem_nat_In. unfold first_nt. rewrite AF. apply H.
    destruct X as [b|m]; simpl in *; [assumption|]. apply in_or_app. left. unfold first_nt in Ha. now rewrite AF in Ha.
  - destruct X as [b|m]; simpl; [reflexivity|].
    destruct (nullable_nt an m) eqn:E; [|reflexivity]. apply IH. intros a Ha. apply H. simpl.
    apply in_or_app. right. now rewrite E.
Qed.

Lemma gen_f_first : f_first g an = true.
Proof.
  unfold f_first. apply forallb_forall. intros pr Hpr. pose proof (LHS _ Hpr) as Hl.
  apply andb_true_iff. split.
  - destruct (forallb (nullable_sym an) (rhs pr)) eqn:E; [|reflexivity].
    unfold nullable_nt. rewrite AN. rewrite <- N_stable. unfold flag_step.
    rewrite nth_map_seq by assumption. apply existsb_exists. exists pr. split; [assumption|].
    rewrite Nat.eqb_refl, flag_rhs_nullable. exact E.
  - apply first_closed_of_rhs. intros a Ha. apply F_stable.
    unfold cfirst_step. rewrite nth_map_seq by assumption. apply In_dedup.
    apply in_flat_map. exists pr. split; [assumption|]. now rewrite Nat.eqb_refl.
Qed.

Lemma gen_x_null : x_null g an = true.
Proof.
  unfold x_null. rewrite AN, N_length. apply forallb_forall. intros n _.
  unfold nullable_nt. rewrite AN. destruct GF_parts as (E & _).
  change (flag_iter g false nn (length g)) with (gen_nullable g nn). rewrite <- E.
  destruct (nth n N false); reflexivity.
Qed.

Lemma gen_c_first : c_first g an = true.
Proof.
  unfold c_first. rewrite AF, F_length. apply forallb_forall. intros n _.
  apply forallb_forall. intros a Ha. apply mem_nat_In. unfold first_nt in Ha. rewrite AF in Ha.
  destruct GF_parts as (_ & E & _). rewrite E in Ha. unfold gen_first_sets in Ha.
  rewrite (cfirst_iter_ext g nn an (an_null g nn)); [assumption|]. simpl. rewrite AN. apply GF_parts.
Qed.

End FirstP.

Definition dot0 (it : item) : Prop := match it with (_, k, _) => k = 0 end.
Definition la_of (it : item) : nat := match it with (_, _, la) => la end.

Lemma add_items_spec : forall news I,
  exists extra, add_items I news = I ++ extra /\ incl extra news /\ incl news (I ++ extra).
Proof.
  induction news as [|i news IH]; intros I.
  - exists []. rewrite app_nil_r. split; [reflexivity|]. split; intros x [].
  - change (add_items I (i :: news)) with (add_items (add_item I i) news).
    unfold add_item. destruct (mem_item i I) eqn:E.
    + destruct (IH I) as (extra & E1 & E2 & E3). exists extra. split; [exact E1|]. split.
      * intros x Hx. right. now apply E2.
      * intros x [<-|Hx]; [apply in_or_app; left; now apply mem_item_In|now apply E3].
    + destruct (IH (I ++ [i])) as (extra & E1 & E2 & E3). exists (i :: extra).
      rewrite E1, <- app_assoc. split; [reflexivity|]. split.
      * intros x [<-|Hx]; [now left|right; now apply E2].
      * intros x [<-|Hx]; [apply in_or_app; right; now left|].
        specialize (E3 _ Hx). now rewrite <- app_assoc in E3.
Qed.

Lemma add_items_ind (Q : list item -> Prop) : forall news I,
  Q I ->
  (forall I' i, Q I' -> incl I I' -> In i news -> ~ In i I' -> Q (I' ++ [i])) ->
  Q (add_items I news).
Proof.
  induction news as [|i news IH]; intros I HQ Hstep; [assumption|].
  change (add_items I (i :: news)) with (add_items (add_item I i) news).
  unfold add_item. destruct (mem_item i I) eqn:E.
  - apply IH; [assumption|]. intros I' j H1 H2 H3 H4. apply Hstep; auto. now right.
  - apply IH.
    + apply Hstep; auto; [intros x; auto|now left|]. intros Hin. apply mem_item_In in Hin. congruence.
    + intros I' j H1 H2 H3 H4. apply Hstep; auto; [|now right].
      intros x Hx. apply H2. apply in_or_app. now left.
Qed.

Lemma assoc_snoc X Y t l :
  assoc X (l ++ [(Y, t)]) = match assoc X l with Some u => Some u | None => if sym_eqb X Y then Some t else None end.
Proof.
  induction l as [|[Z u] l IH]; simpl; [reflexivity|]. destruct (sym_eqb X Z); [reflexivity|apply IH].
Qed.

Lemma find_index_from_Some J : forall sts i t, find_index_from J sts i = Some t ->
  i <= t /\ t - i < length sts /\ set_eqb (nth (t - i) sts []) J = true.
Proof.
  induction sts as [|I1 sts IH]; intros i t H; simpl in H; [discriminate|].
  destruct (set_eqb I1 J) eqn:E.
  - inversion H; subst. rewrite Nat.sub_diag. simpl. split; [lia|]. split; [lia|assumption].
  - destruct (IH _ _ H) as (H1 & H2 & H3). split; [lia|]. split; [simpl; lia|].
    replace (t - i) with (S (t - S i)) by lia. exact H3.
Qed.

Lemma find_index_from_None J : forall sts i, find_index_from J sts i = None ->
  forall t, t < length sts -> set_eqb (nth t sts []) J = false.
Proof.
  induction sts as [|I1 sts IH]; intros i H t Ht; simpl in *; [lia|].
  destruct (set_eqb I1 J) eqn:E; [discriminate|]. destruct t; [assumption|]. apply (IH _ H). lia.
Qed.

(** The generator runs on an annotation [an] without items; the validators read the annotation [anv]
    that holds the generated states.  All that matters is that the two agree on FIRST. *)
Section ItemSets.
Variable g : grammar.
Variable la_order : list nat.
Variables an anv : annot.
Hypothesis FS : forall beta la, first_seq anv beta la = first_seq an beta la.

Notation new_items := (new_items g la_order an).
Notation closure_loop := (closure_loop g la_order an).
Notation closure := (closure g la_order an).

Lemma new_items_inv p k la i : In i (new_items (p, k, la)) ->
  exists pr B q prq b, i = (q, 0, b) /\ nth_error g p = Some pr /\ nth_error (rhs pr) k = Some (NT B) /\
    nth_error g q = Some prq /\ lhs prq = B /\ In b (first_seq an (skipn (S k) (rhs pr)) la) /\ In b la_order.
Proof.
  unfold Gen.new_items. destruct (nth_error g p) as [pr|] eqn:Hp; [|intros []].
  destruct (nth_error (rhs pr) k) as [[a|B]|] eqn:Hk; try (intros []).
  intros H. apply in_flat_map in H. destruct H as (q & Hq & H). apply in_map_iff in H.
  destruct H as (b & <- & Hb). unfold las in Hb. apply filter_In in Hb. destruct Hb as [Hb1 Hb2].
  apply mem_nat_In in Hb2. destruct (prods_of_inv _ _ _ Hq) as (prq & Hq' & HB).
  exists pr, B, q, prq, b. repeat split; auto.
Qed.

Lemma new_items_intro p k la pr q prq b :
  nth_error g p = Some pr -> nth_error (rhs pr) k = Some (NT (lhs prq)) -> nth_error g q = Some prq ->
  In b (first_seq an (skipn (S k) (rhs pr)) la) -> In b la_order ->
  In (q, 0, b) (new_items (p, k, la)).
Proof.
  intros Hp Hk Hq Hb Hl. unfold Gen.new_items. rewrite Hp, Hk. apply in_flat_map.
  exists q. split; [now apply prods_of_spec|]. apply in_map. unfold las. apply filter_In.
  split; [assumption|now apply mem_nat_In].
Qed.

Lemma new_items_just p k la q b : In (q, 0, b) (new_items (p, k, la)) -> just_by g anv q b (p, k, la) = true.
Proof.
  intros H. destruct (new_items_inv _ _ _ _ H) as (pr & B & q' & prq & b' & E & Hp & Hk & Hq & HB & Hb & _).
  inversion E; subst q' b'. unfold just_by. rewrite Hp, Hq, Hk, HB, Nat.eqb_refl, FS. simpl. now apply mem_nat_In.
Qed.

Lemma closure_loop_ind (Q : list item -> Prop) :
  (forall I it i, Q I -> In it I -> In i (new_items it) -> ~ In i I -> Q (I ++ [i])) ->
  forall fuel I idx J, closure_loop fuel I idx = Some J -> Q I -> Q J.
Proof.
  intros Hstep. induction fuel as [|f IH]; intros I idx J H HQ; simpl in H; [discriminate|].
  destruct (nth_error I idx) as [it|] eqn:E; [|inversion H; now subst].
  apply (IH _ _ _ H). apply add_items_ind; [assumption|].
  intros I' i H1 H2 H3 H4. apply (Hstep I' it); auto. apply H2. eapply nth_error_In; eauto.
Qed.

Lemma closure_loop_closed : forall fuel I idx J, closure_loop fuel I idx = Some J ->
  (forall j it, j < idx -> nth_error I j = Some it -> incl (new_items it) I) ->
  (exists rest, J = I ++ rest) /\ forall it, In it J -> incl (new_items it) J.
Proof.
  induction fuel as [|f IH]; intros I idx J H Hc; simpl in H; [discriminate|].
  destruct (nth_error I idx) as [it|] eqn:E.
  - destruct (add_items_spec (new_items it) I) as (extra & E1 & E2 & E3).
    rewrite E1 in H. destruct (IH _ _ _ H) as ((rest & ->) & Hcl).
    + intros j it' Hj Hn.
      assert (Hlt : j < length I).
      { assert (idx < length I) by (apply nth_error_Some; congruence). lia. }
      rewrite nth_error_app1 in Hn by assumption.
      destruct (Nat.eq_dec j idx) as [->|Hne].
      * rewrite E in Hn. inversion Hn; subst it'. exact E3.
      * intros x Hx. apply in_or_app. left. apply (Hc j it'); auto. lia.
    + split; [|assumption]. exists (extra ++ rest). now rewrite app_assoc.
  - inversion H; subst J. split; [exists []; now rewrite app_nil_r|].
    intros it Hin. apply In_nth_error in Hin. destruct Hin as [j Hj].
    apply (Hc j it); [|assumption]. apply nth_error_None in E.
    assert (j < length I) by (apply nth_error_Some; congruence). lia.
Qed.

Lemma cjust_list_app is0 : forall l1 acc l2,
  cjust_list g anv is0 acc (l1 ++ l2) = cjust_list g anv is0 acc l1 && cjust_list g anv is0 (rev l1 ++ acc) l2.
Proof.
  induction l1 as [|it l1 IH]; intros acc l2; [reflexivity|].
  cbn [app cjust_list rev]. rewrite IH, <- app_assoc, andb_assoc. reflexivity.
Qed.

Variable ntm : nat.
Hypothesis LAO : forall a, a < ntm -> In a la_order.
Hypothesis TOK : forall pr a, In pr g -> In (T a) (rhs pr) -> a < ntm.
Hypothesis FOK : forall n a, In a (first_nt an n) -> a < ntm.

Lemma first_seq_lt : forall beta la b, (forall a, In (T a) beta -> a < ntm) -> la < ntm ->
  In b (first_seq an beta la) -> b < ntm.
Proof.
  induction beta as [|X beta IH]; intros la b HB Hla Hin; simpl in Hin.
  - destruct Hin as [<-|[]]. assumption.
  - apply in_app_or in Hin. destruct Hin as [Hin|Hin].
    + destruct X as [a|n]; simpl in Hin.
      * destruct Hin as [<-|[]]. apply HB. now left.
      * eapply FOK; eauto.
    + destruct (nullable_sym an X); [|destruct Hin]. apply (IH la); auto. intros a Ha. apply HB. now right.
Qed.

Lemma new_item_la_lt p pr k la b : nth_error g p = Some pr -> la < ntm ->
  In b (first_seq an (skipn (S k) (rhs pr)) la) -> b < ntm.
Proof.
  intros Hp Hla. apply first_seq_lt; [|assumption].
  intros a Ha. apply (TOK pr); [eapply nth_error_In; eauto|eapply In_skipn; eauto].
Qed.

(** the three invariants of a state under construction: look-aheads are terminals; the kernel
    [K] is a prefix and the rest has dot 0; dot-0 items are justified by earlier items.  [is0] and [acc] are
    those of [Canonical.cjust_list]: whether this is state 0, and the items already scanned, newest first *)
Definition cinv (is0 : bool) (acc K I : list item) : Prop :=
  Forall (fun it => la_of it < ntm) I /\
  (exists rest, I = K ++ rest /\ Forall dot0 rest) /\
  cjust_list g anv is0 acc I = true.

Lemma cinv_step is0 acc K I it i :
  cinv is0 acc K I -> In it I -> In i (new_items it) -> ~ In i I -> cinv is0 acc K (I ++ [i]).
Proof.
  intros (H1 & (rest & -> & H2) & H3) Hit Hi _. destruct it as [[p k] la].
  destruct (new_items_inv _ _ _ _ Hi) as (pr & B & q & prq & b & -> & Hp & Hk & Hq & HB & Hb & Hlo).
  split; [|split].
  - apply Forall_app. split; [assumption|]. constructor; [|constructor]. simpl.
    rewrite Forall_forall in H1. specialize (H1 _ Hit). simpl in H1.
    exact (new_item_la_lt _ _ _ _ _ Hp H1 Hb).
  - exists (rest ++ [(q, 0, b)]). rewrite app_assoc. split; [reflexivity|].
    apply Forall_app. split; [assumption|]. constructor; [reflexivity|constructor].
  - rewrite cjust_list_app, H3. cbn [cjust_list andb]. rewrite andb_true_r.
    apply orb_true_iff. right. apply existsb_exists. exists (p, k, la). split.
    + apply in_or_app. left. now apply in_rev in Hit.
    + now apply new_items_just.
Qed.

Lemma closure_spec is0 acc K J : closure K = Some J ->
  Forall (fun it => la_of it < ntm) K -> cjust_list g anv is0 acc K = true ->
  cinv is0 acc K J /\ forall it, In it J -> incl (new_items it) J.
Proof.
  unfold Gen.closure. intros H HK HJ. split.
  - apply (closure_loop_ind (cinv is0 acc K)) in H; [assumption| |].
    + intros I it i. apply cinv_step.
    + split; [assumption|]. split; [|assumption]. exists []. rewrite app_nil_r. auto.
  - apply closure_loop_closed in H; [apply H|]. intros j it Hj. lia.
Qed.

Lemma closure_nil : closure [] = Some [].
Proof. unfold Gen.closure, closure_fuel. rewrite Nat.add_comm. reflexivity. Qed.

Lemma closed_first J p k la pr B q prq b :
  (forall it, In it J -> incl (new_items it) J) -> Forall (fun it => la_of it < ntm) J ->
  In (p, k, la) J -> nth_error g p = Some pr -> nth_error (rhs pr) k = Some (NT B) ->
  nth_error g q = Some prq -> lhs prq = B -> In b (first_seq anv (skipn (S k) (rhs pr)) la) ->
  In (q, 0, b) J.
Proof.
  intros Hc Hla Hin Hp Hk Hq HB Hb. subst B. rewrite FS in Hb. apply (Hc _ Hin). eapply new_items_intro; eauto.
  apply LAO. rewrite Forall_forall in Hla. specialize (Hla _ Hin). simpl in Hla.
  exact (new_item_la_lt _ _ _ _ _ Hp Hla Hb).
Qed.

Variable symbols : list sym.
Hypothesis EOK : EOFT < ntm.

Notation goto_kernel := (goto_kernel g).
Notation goto := (goto g la_order an).
Notation expects := (expects g).
Notation process_syms := (process_syms g la_order an).
Notation states_loop := (states_loop g symbols la_order an).
Notation la_lt := (fun it : item => la_of it < ntm).

Lemma expects_spec X p k la : expects X (p, k, la) = true <->
  exists pr, nth_error g p = Some pr /\ nth_error (rhs pr) k = Some X.
Proof.
  unfold Gen.expects. destruct (nth_error g p) as [pr|].
  2:{ split; [discriminate|]. intros (pr' & E1 & _). discriminate E1. }
  destruct (nth_error (rhs pr) k) as [Y|] eqn:EY.
  2:{ split; [discriminate|]. intros (pr' & E1 & E2). inversion E1; subst pr'. rewrite EY in E2. discriminate E2. }
  rewrite sym_eqb_eq. split.
  - intros ->. eauto.
  - intros (pr' & E1 & E2). inversion E1; subst pr'. rewrite EY in E2. now inversion E2.
Qed.

Lemma goto_kernel_In X I p k la :
  In (p, k, la) (goto_kernel X I) <-> exists k', k = S k' /\ In (p, k', la) I /\ expects X (p, k', la) = true.
Proof.
  unfold Gen.goto_kernel. rewrite in_map_iff. split.
  - intros ([[p' k'] la'] & [= <- <- <-] & Hin). apply filter_In in Hin. exists k'. split; [reflexivity|exact Hin].
  - intros (k' & -> & Hin & He). exists (p, k', la). split; [reflexivity|]. apply filter_In. auto.
Qed.

Lemma goto_kernel_la X I : Forall la_lt I -> Forall la_lt (goto_kernel X I).
Proof.
  intros H. rewrite Forall_forall in H. apply Forall_forall. intros [[p k] la] Hin. apply goto_kernel_In in Hin.
  destruct Hin as (k' & _ & Hin & _). apply (H _ Hin).
Qed.

Lemma cjust_kernel acc : forall K, (forall it, In it K -> ~ dot0 it) -> cjust_list g anv false acc K = true.
Proof.
  intros K. revert acc. induction K as [|[[p k] la] K IH]; intros acc H; [reflexivity|].
  cbn [cjust_list]. rewrite IH by (intros it Hi; apply H; now right).
  destruct k; [|reflexivity]. exfalso. apply (H (p, 0, la)); [now left|reflexivity].
Qed.

Lemma goto_kernel_dot X I it : In it (goto_kernel X I) -> ~ dot0 it.
Proof.
  destruct it as [[p k] la]. intros Hin. apply goto_kernel_In in Hin. destruct Hin as (k' & -> & _). discriminate.
Qed.

Definition closed (St : list item) : Prop := forall it, In it St -> incl (new_items it) St.

Definition state_ok (is0 : bool) (St : list item) : Prop :=
  Forall la_lt St /\ closed St /\ cjust_list g anv is0 [] St = true /\
  (if is0 then In (0, 0, EOFT) St /\ Forall dot0 St else exists it, In it St /\ ~ dot0 it).

Definition states_ok (sts : list (list item)) : Prop :=
  forall j St, nth_error sts j = Some St -> state_ok (Nat.eqb j 0) St.

Lemma goto_spec X I J : goto X I = Some J -> Forall la_lt I ->
  (exists rest, J = goto_kernel X I ++ rest /\ Forall dot0 rest) /\
  Forall la_lt J /\ closed J /\ cjust_list g anv false [] J = true.
Proof.
  intros H HI. unfold Gen.goto in H.
  destruct (closure_spec false [] _ _ H) as ((H1 & H2 & H3) & H4).
  - now apply goto_kernel_la.
  - apply cjust_kernel. intros it. apply goto_kernel_dot.
  - auto.
Qed.

Lemma goto_nonempty X I J : goto X I = Some J -> Forall la_lt I -> J <> [] ->
  state_ok false J /\ exists it, In it I /\ expects X it = true.
Proof.
  intros H HI HJ. destruct (goto_spec _ _ _ H HI) as ((rest & E & Hr) & H1 & H2 & H3).
  destruct (goto_kernel X I) as [|[[p k] la] K] eqn:EK.
  - exfalso. unfold Gen.goto in H. rewrite EK, closure_nil in H. inversion H. congruence.
  - assert (Hin : In (p, k, la) (goto_kernel X I)) by (rewrite EK; now left).
    split.
    + split; [assumption|]. split; [assumption|]. split; [assumption|].
      exists (p, k, la). split; [rewrite E; now left|]. eapply goto_kernel_dot; eauto.
    + apply goto_kernel_In in Hin. destruct Hin as (k' & _ & Hin & He). eauto.
Qed.

Lemma goto_items X I J p k la : goto X I = Some J -> Forall la_lt I ->
  (In (p, S k, la) J <-> In (p, k, la) I /\ expects X (p, k, la) = true).
Proof.
  intros H HI. destruct (goto_spec _ _ _ H HI) as ((rest & E & Hr) & _). rewrite E. split.
  - intros Hin. apply in_app_or in Hin. destruct Hin as [Hin|Hin].
    + apply goto_kernel_In in Hin. destruct Hin as (k' & Ek & Hin). inversion Ek; subst. assumption.
    + rewrite Forall_forall in Hr. specialize (Hr _ Hin). discriminate.
  - intros [Hin He]. apply in_or_app. left. apply goto_kernel_In. eauto.
Qed.

Lemma set_eqb_spec I J : set_eqb I J = true -> forall i, In i I <-> In i J.
Proof.
  unfold set_eqb. intros H i. apply andb_prop in H. destruct H as [H1 H2]. rewrite forallb_forall in H1, H2.
  split; intros H; apply mem_item_In; auto.
Qed.

Lemma set_eqb_refl I : set_eqb I I = true.
Proof.
  unfold set_eqb. apply andb_true_iff.
  split; apply forallb_forall; intros i Hi; now apply mem_item_In.
Qed.

Definition entry_ok (sts : list (list item)) (I : list item) (X : sym) (t : nat) : Prop :=
  t < length sts /\ t <> 0 /\ exists J, goto X I = Some J /\ J <> [] /\ set_eqb (nth t sts []) J = true.

Lemma entry_ok_mono sts ext I X t : entry_ok sts I X t -> entry_ok (sts ++ ext) I X t.
Proof.
  intros (H1 & H2 & J & H3 & H4 & H5). split; [rewrite app_length; lia|]. split; [assumption|].
  exists J. split; [assumption|]. split; [assumption|]. now rewrite app_nth1.
Qed.

Lemma states_ok_snoc sts J : states_ok sts -> 0 < length sts -> state_ok false J -> states_ok (sts ++ [J]).
Proof.
  intros H Hl HJ j St Hn. apply nth_error_snoc in Hn. destruct Hn as [Hn|[-> ->]]; [now apply H|].
  replace (Nat.eqb (length sts) 0) with false; [assumption|]. symmetry. apply Nat.eqb_neq. lia.
Qed.

(** a Goto is never state 0: it holds an item with the dot advanced, state 0 none *)
Lemma goto_not_state0 sts J idx : states_ok sts -> state_ok false J -> idx < length sts ->
  set_eqb (nth idx sts []) J = true -> idx <> 0.
Proof.
  intros Hok (_ & _ & _ & (it & Hi & Hnd)) Hlt Hse ->. destruct sts as [|St0 sts0]; [inversion Hlt|].
  destruct (Hok 0 St0 eq_refl) as (_ & _ & _ & _ & Hd0). simpl in Hd0, Hse.
  apply Hnd. rewrite Forall_forall in Hd0. apply Hd0. now apply (set_eqb_spec _ _ Hse).
Qed.

Lemma new_state_no_entry sts I row X J : (forall X t, In (X, t) row -> entry_ok sts I X t) ->
  goto X I = Some J -> find_index J sts = None -> assoc X row = None.
Proof.
  intros Hrow EJ EF. destruct (assoc X row) as [t|] eqn:Ea; [|reflexivity]. exfalso.
  apply assoc_In in Ea. destruct (Hrow _ _ Ea) as (Hlt & _ & J' & HJ' & _ & Hse).
  rewrite EJ in HJ'. injection HJ' as <-. rewrite (find_index_from_None _ _ _ EF _ Hlt) in Hse. discriminate.
Qed.

(** what the inner loop over [syms] has done to the states and to the row of [I] (kept folded in
    [process_syms_spec] on purpose) *)
Definition syms_done I syms sts row sts' row' : Prop :=
  (exists ext, sts' = sts ++ ext) /\ states_ok sts' /\
  (forall X t, In (X, t) row' -> entry_ok sts' I X t) /\
  (forall X t, assoc X row = Some t -> assoc X row' = Some t) /\
  (forall X, In X syms -> goto_kernel X I <> [] -> assoc X row' <> None) /\
  (forall j, length sts <= j < length sts' -> exists X, assoc X row' = Some j).

(** [e]: the states the symbol in front appended (none, or its new Goto) *)
Lemma syms_done_cons I X t e syms sts row sts' row' :
  syms_done I syms (sts ++ e) (row ++ [(X, t)]) sts' row' ->
  (forall j, length sts <= j < length (sts ++ e) -> j = t /\ assoc X row = None) ->
  syms_done I (X :: syms) sts row sts' row'.
Proof.
  intros ((ext & ->) & H2 & H3 & H4 & H5 & H6) Hnew.
  split; [exists (e ++ ext); now rewrite app_assoc|]. split; [assumption|]. split; [assumption|]. split; [|split].
  - intros Y u Ha. apply H4. now rewrite assoc_snoc, Ha.
  - intros Y [<-|HY]; [|now apply H5]. intros _.
    destruct (assoc X (row ++ [(X, t)])) as [u|] eqn:Ea; [rewrite (H4 _ _ Ea); discriminate|].
    rewrite assoc_snoc in Ea. destruct (assoc X row); [discriminate|].
    now rewrite (proj2 (sym_eqb_eq X X) eq_refl) in Ea.
  - intros j Hj. destruct (Nat.lt_ge_cases j (length (sts ++ e))) as [Hlt|Hge]; [|apply H6; lia].
    destruct (Hnew j) as [-> Hnone]; [lia|]. exists X. apply H4.
    now rewrite assoc_snoc, Hnone, (proj2 (sym_eqb_eq X X) eq_refl).
Qed.

Lemma process_syms_spec I : Forall la_lt I -> forall syms sts row sts' row',
  process_syms I syms sts row = Some (sts', row') ->
  states_ok sts -> 0 < length sts -> (forall X t, In (X, t) row -> entry_ok sts I X t) ->
  syms_done I syms sts row sts' row'.
Proof.
  intros HI. induction syms as [|X syms IH]; intros sts row sts' row' H Hok Hpos Hrow; simpl in H.
  - injection H as <- <-. split; [exists []; now rewrite app_nil_r|]. split; [assumption|]. split; [assumption|].
    split; [auto|]. split; [intros X []|]. intros j Hj. lia.
  - destruct (goto X I) as [J|] eqn:EJ; [|discriminate].
    destruct J as [|i0 J0].
    + (* empty Goto *)
      destruct (IH _ _ _ _ H Hok Hpos Hrow) as (H1 & H2 & H3 & H4 & H5 & H6).
      split; [assumption|]. split; [assumption|]. split; [assumption|]. split; [assumption|]. split; [|assumption].
      intros Y [<-|HY]; [|now apply H5]. intros Hne. exfalso. apply Hne.
      destruct (goto_spec _ _ _ EJ HI) as ((rest & E & _) & _).
      symmetry in E. apply app_eq_nil in E. apply E.
    + set (J := i0 :: J0) in *.
      assert (HJne : J <> []) by discriminate.
      destruct (goto_nonempty _ _ _ EJ HI HJne) as [HJok _].
      destruct (find_index J sts) as [idx|] eqn:EF.
      * (* an existing state *)
        apply (syms_done_cons I X idx []); [|rewrite app_nil_r; intros j Hj; lia].
        rewrite app_nil_r. apply (IH _ _ _ _ H Hok Hpos).
        unfold find_index in EF. apply find_index_from_Some in EF. rewrite Nat.sub_0_r in EF.
        destruct EF as (_ & Hlt & Hse).
        intros Y t Hin. apply in_app_or in Hin. destruct Hin as [Hin|[[= <- <-]|[]]]; [now apply Hrow|].
        split; [assumption|]. split; [exact (goto_not_state0 _ _ _ Hok HJok Hlt Hse)|exists J; auto].
      * (* a new state *)
        apply (syms_done_cons I X (length sts) [J]).
        -- apply (IH _ _ _ _ H); [now apply states_ok_snoc|rewrite app_length; lia|].
           intros Y t Hin. apply in_app_or in Hin. destruct Hin as [Hin|[[= <- <-]|[]]].
           ++ apply entry_ok_mono. now apply Hrow.
           ++ split; [rewrite app_length; simpl; lia|]. split; [lia|].
              exists J. split; [assumption|]. split; [assumption|].
              rewrite app_nth2, Nat.sub_diag by lia. simpl. apply set_eqb_refl.
        -- intros j Hj. rewrite app_length in Hj. simpl in Hj. split; [lia|].
           exact (new_state_no_entry _ _ _ _ _ Hrow EJ EF).
Qed.

Definition row_ok (sts : list (list item)) (I : list item) (row : list (sym * nat)) : Prop :=
  (forall X t, In (X, t) row -> entry_ok sts I X t) /\
  (forall X, In X symbols -> goto_kernel X I <> [] -> assoc X row <> None).

Definition linv (sts : list (list item)) (trs : transitions) : Prop :=
  states_ok sts /\ 0 < length sts /\ length trs <= length sts /\
  (forall s row, nth_error trs s = Some row -> row_ok sts (nth s sts []) row) /\
  (forall j, 0 < j < length sts -> exists s X, s < j /\ assoc X (nth s trs []) = Some j).

Lemma linv_step sts trs I1 sts' row : linv sts trs -> nth_error sts (length trs) = Some I1 ->
  process_syms I1 symbols sts [] = Some (sts', row) -> linv sts' (trs ++ [row]).
Proof.
  intros (H1 & H2 & H3 & H4 & H5) EI EP.
  assert (HI : Forall la_lt I1).
  { destruct (H1 _ _ EI) as (HI & _). exact HI. }
  destruct (process_syms_spec I1 HI _ _ _ _ _ EP H1 H2) as ((ext & ->) & P2 & P3 & _ & P5 & P6).
  { intros X t []. }
  assert (Hlt : length trs < length sts) by (apply nth_error_Some; congruence).
  split; [assumption|]. split; [rewrite app_length; lia|].
  split; [rewrite !app_length; simpl; lia|]. split.
  - intros s row' Hn. apply nth_error_snoc in Hn. destruct Hn as [Hn|[-> ->]].
    + assert (Hs : s < length trs) by (apply nth_error_Some; congruence). destruct (H4 _ _ Hn) as [R1 R2].
      rewrite app_nth1 by lia. split; [|assumption].
      intros X t Hin. apply entry_ok_mono. now apply R1.
    + rewrite app_nth1 by lia. rewrite (nth_error_nth _ _ _ EI). split; assumption.
  - intros j Hj. destruct (Nat.lt_ge_cases j (length sts)) as [Hjl|Hjl].
    + destruct (H5 j) as (s & X & Hs & Ha); [lia|]. exists s, X. split; [assumption|].
      destruct (Nat.lt_ge_cases s (length trs)) as [Hs'|Hs'].
      * now rewrite app_nth1.
      * rewrite nth_overflow in Ha by assumption. discriminate.
    + destruct (P6 j) as [X HX]; [lia|]. exists (length trs), X. split; [lia|].
      now rewrite app_nth2, Nat.sub_diag by lia.
Qed.

Lemma states_loop_spec : forall fuel sts trs S TR,
  states_loop fuel sts trs = Some (S, TR) -> linv sts trs -> linv S TR /\ length TR = length S.
Proof.
  induction fuel as [|f IH]; intros sts trs S TR H HL; simpl in H; [discriminate|].
  destruct (nth_error sts (length trs)) as [I1|] eqn:EI.
  - destruct (process_syms I1 symbols sts []) as [[sts' row]|] eqn:EP; [|discriminate].
    exact (IH _ _ _ _ H (linv_step _ _ _ _ _ HL EI EP)).
  - injection H as <- <-. split; [assumption|]. apply nth_error_None in EI. destruct HL as (_ & _ & H3 & _). lia.
Qed.

Lemma init_state I0 : closure [(0, 0, EOFT)] = Some I0 -> linv [I0] [].
Proof.
  intros H.
  destruct (closure_spec true [] _ _ H) as ((C1 & (rest & E & C2) & C3) & C4).
  { constructor; [exact EOK|constructor]. }
  { reflexivity. }
  split; [|split; [simpl; lia|split; [simpl; lia|split]]].
  - intros [|j] St Hn; simpl in Hn; [|destruct j; discriminate]. inversion Hn; subst St. simpl.
    split; [assumption|]. split; [assumption|]. split; [assumption|]. split.
    + rewrite E. now left.
    + rewrite E. constructor; [reflexivity|assumption].
  - intros [|s] row Hn; discriminate.
  - intros j Hj. simpl in Hj. lia.
Qed.

Lemma gen_states_spec fuel S TR : gen_states_an g symbols la_order an fuel = Some (S, TR) ->
  linv S TR /\ length TR = length S.
Proof.
  unfold gen_states_an. destruct (closure [(0, 0, EOFT)]) as [I0|] eqn:E; [|discriminate].
  intros H. apply (states_loop_spec _ _ _ _ _ H). now apply init_state.
Qed.

End ItemSets.

Lemma first_seq_ext an an' : a_nullable an = a_nullable an' -> a_first an = a_first an' ->
  forall beta la, first_seq an beta la = first_seq an' beta la.
Proof.
  intros EN EF. induction beta as [|X beta IH]; intros la; simpl; [reflexivity|]. rewrite IH.
  destruct X as [a|n]; simpl; [reflexivity|]. unfold first_nt, nullable_nt. now rewrite EN, EF.
Qed.

Section Wf.
Context {g : grammar} {nn ntm : nat} {symbols : list sym} {la_order : list nat} {terr : nat}.
Hypothesis WF : gen_wf g nn ntm symbols la_order terr = true.

Lemma wf_parts :
  1 < ntm /\ terr < ntm /\
  (exists pr0, nth_error g 0 = Some pr0 /\ length (rhs pr0) = 1 /\
               forall pr, In pr g -> ~ In (NT (lhs pr0)) (rhs pr)) /\
  (forall pr, In pr g -> lhs pr < nn) /\
  (forall pr a, In pr g -> In (T a) (rhs pr) -> 1 < a /\ a < ntm) /\
  (forall pr n, In pr g -> In (NT n) (rhs pr) -> n < nn) /\
  (forall a, a < ntm -> In a la_order) /\
  (forall pr X, In pr g -> In X (rhs pr) -> In X symbols).
Proof.
  pose proof WF as H. unfold gen_wf in H.
  apply andb_prop in H. destruct H as [H H6]. apply andb_prop in H. destruct H as [H H5].
  apply andb_prop in H. destruct H as [H H4]. apply andb_prop in H. destruct H as [H H3].
  apply andb_prop in H. destruct H as [H1 H2].
  apply Nat.ltb_lt in H1, H2. rewrite forallb_forall in H4, H6. rewrite forallb_seq in H5.
  assert (H4' : forall pr X, In pr g -> In X (rhs pr) ->
                match X with T a => (1 <? a) && (a <? ntm) | NT n => n <? nn end = true).
  { intros pr X Hpr. specialize (H4 _ Hpr). apply andb_prop in H4. destruct H4 as [_ H4].
    rewrite forallb_forall in H4. apply H4. }
  split; [assumption|]. split; [assumption|]. split; [|split; [|split; [|split; [|split]]]].
  - destruct g as [|pr0 g']; [discriminate|]. apply andb_prop in H3. destruct H3 as [H3 H3'].
    apply Nat.eqb_eq in H3. exists pr0. split; [reflexivity|]. split; [assumption|].
    intros pr Hpr Hin. rewrite forallb_forall in H3'. specialize (H3' _ Hpr). rewrite forallb_forall in H3'.
    specialize (H3' _ Hin). simpl in H3'. rewrite Nat.eqb_refl in H3'. discriminate.
  - intros pr Hpr. specialize (H4 _ Hpr). apply andb_prop in H4. apply Nat.ltb_lt, H4.
  - intros pr a Hpr Ha. specialize (H4' _ _ Hpr Ha). apply andb_prop in H4'.
    split; apply Nat.ltb_lt, H4'.
  - intros pr n Hpr Hn. apply Nat.ltb_lt. exact (H4' _ _ Hpr Hn).
  - intros a Ha. apply mem_nat_In. now apply H5.
  - intros pr X Hpr HX. specialize (H6 _ Hpr). rewrite forallb_forall in H6. apply mem_sym_In. now apply H6.
Qed.

Lemma wf_ntm : 1 < ntm.
Proof. apply wf_parts. Qed.
Lemma wf_terr : terr < ntm.
Proof. apply wf_parts. Qed.
Lemma wf_start : exists pr0, nth_error g 0 = Some pr0 /\ length (rhs pr0) = 1 /\
                             forall pr, In pr g -> ~ In (NT (lhs pr0)) (rhs pr).
Proof. apply wf_parts. Qed.
Lemma wf_ne : g <> [].
Proof. destruct wf_start as (pr0 & H & _). intros E. rewrite E in H. discriminate. Qed.
Lemma wf_eof : EOFT < ntm.
Proof. apply wf_parts. Qed.
Lemma wf_lhs pr : In pr g -> lhs pr < nn.
Proof. apply wf_parts. Qed.
Lemma wf_T pr a : In pr g -> In (T a) (rhs pr) -> 1 < a /\ a < ntm.
Proof. apply wf_parts. Qed.
Lemma wf_tok pr a : In pr g -> In (T a) (rhs pr) -> a < ntm.
Proof. intros H1 H2. apply (wf_T pr a H1 H2). Qed.
Lemma wf_NT pr n : In pr g -> In (NT n) (rhs pr) -> n < nn.
Proof. apply wf_parts. Qed.
Lemma wf_la a : a < ntm -> In a la_order.
Proof. apply wf_parts. Qed.
Lemma wf_sym pr X : In pr g -> In X (rhs pr) -> In X symbols.
Proof. apply wf_parts. Qed.
End Wf.

Section AutoP.
Variable g : grammar.
Variables nn ntm : nat.
Variable symbols : list sym.
Variable la_order : list nat.
Variable terr : nat.
Variable N : list bool.
Variable F : list (list nat).
Variable STS : list (list item).
Variable TR : transitions.
Variable fuel : nat.
Hypothesis WF : gen_wf g nn ntm symbols la_order terr = true.
Hypothesis GF : gen_first g nn = Some (N, F).
Hypothesis GS : gen_states_an g symbols la_order {| a_items := []; a_nullable := N; a_first := F |} fuel = Some (STS, TR).

Definition gan : annot := {| a_items := STS; a_nullable := N; a_first := F |}.
Notation an := gan.
Notation an0 := {| a_items := []; a_nullable := N; a_first := F |}.
Notation items := (items_of an).

Lemma a_x_null : x_null g an = true.
Proof. apply (gen_x_null g nn N F GF (wf_ne WF) (wf_lhs WF)); reflexivity. Qed.
Lemma a_c_first : c_first g an = true.
Proof. apply (gen_c_first g nn N F GF (wf_ne WF) (wf_lhs WF)); reflexivity. Qed.

(** the annotated FIRST is below the semantic FIRST, whose terminals occur in bodies *)
Lemma gan_first_lt : forall n a, In a (first_nt an n) -> a < ntm.
Proof.
  intros n a H. apply (c_first_P g an (x_null_P g an a_x_null) a_c_first) in H.
  apply (proj1 (first_s_body g)) in H. destruct H as [H|(pr & H1 & H2)]; [discriminate|]. exact ((wf_tok WF) pr a H1 H2).
Qed.

Lemma gan_first_seq : forall beta la, first_seq an beta la = first_seq an0 beta la.
Proof. now apply first_seq_ext. Qed.

Lemma gan_linv : linv g la_order an0 an ntm symbols STS TR /\ length TR = length STS.
Proof. exact (gen_states_spec g la_order an0 an gan_first_seq ntm (wf_tok WF) gan_first_lt symbols (wf_eof WF) fuel STS TR GS). Qed.

Lemma st_ok s : s < length STS -> state_ok g la_order an0 an ntm (Nat.eqb s 0) (items s).
Proof.
  intros Hs. destruct gan_linv as ((H & _) & _). apply H. unfold items_of. simpl.
  apply nth_error_nth'. assumption.
Qed.

Lemma rw_ok s : s < length STS -> row_ok g la_order an0 symbols STS (items s) (nth s TR []).
Proof.
  intros Hs. destruct gan_linv as ((_ & _ & _ & H & _) & HL). apply H.
  apply nth_error_nth'. lia.
Qed.

Lemma la_all s : s < length STS -> Forall (fun it => la_of it < ntm) (items s).
Proof. intros Hs. apply (st_ok s Hs). Qed.

Lemma a_c_shape : c_shape g ntm an TR = true.
Proof.
  unfold c_shape. destruct gan_linv as ((_ & Hpos & _) & HL). repeat (apply andb_true_intro; split).
  - now apply Nat.ltb_lt.
  - now apply Nat.eqb_eq.
  - apply Nat.ltb_lt. exact (wf_eof WF).
  - apply forallb_forall. intros pr Hpr. apply forallb_forall. intros [a|n] HX; [|reflexivity].
    apply Nat.ltb_lt. eapply (wf_tok WF); eauto.
  - unfold forall_items, forall_st. apply forallb_seq. intros s Hs. apply forallb_forall.
    intros [[p k] la] Hin. apply Nat.ltb_lt. exact (proj1 (Forall_forall _ _) (la_all s Hs) _ Hin).
Qed.

Lemma a_c_state0 : c_state0 an = true.
Proof.
  destruct gan_linv as ((_ & Hpos & _) & _). destruct (st_ok 0 Hpos) as (_ & _ & _ & H1 & H2). simpl in *.
  unfold c_state0. apply andb_true_iff. split; [now apply mem_item_In|].
  apply forallb_forall. intros [[p k] la] Hin. rewrite Forall_forall in H2. specialize (H2 _ Hin).
  simpl in H2. now apply Nat.eqb_eq.
Qed.

Lemma a_c_closed : c_closed g an = true.
Proof.
  unfold c_closed, forall_items, forall_st. apply forallb_seq. intros s Hs. apply forallb_forall.
  intros [[p k] la] Hin. destruct (nth_error g p) as [pr|] eqn:Hp; [|reflexivity].
  destruct (nth_error (rhs pr) k) as [[a|B]|] eqn:Hk; try reflexivity.
  apply forallb_forall. intros q Hq. apply forallb_forall. intros b Hb. apply mem_item_In.
  destruct (prods_of_inv _ _ _ Hq) as (prq & Hq' & HB).
  destruct (st_ok s Hs) as (H1 & H2 & _).
  eapply (closed_first g la_order an0 an gan_first_seq ntm (wf_la WF) (wf_tok WF) gan_first_lt); eauto.
Qed.

Lemma a_c_just : c_just g an = true.
Proof.
  unfold c_just, forall_st. apply forallb_seq. intros s Hs. apply (st_ok s Hs).
Qed.

Lemma a_goto_fwd s p k la pr X : In (p, k, la) (items s) -> nth_error g p = Some pr -> nth_error (rhs pr) k = Some X ->
  exists s', tr_at TR s X = Some s' /\ s' < length STS /\ In (p, S k, la) (items s').
Proof.
  intros Hin Hp Hk. assert (Hs : s < length STS) by (apply (items_lt an _ _ Hin)).
  destruct (rw_ok s Hs) as [R1 R2].
  assert (He : expects g X (p, k, la) = true) by (apply expects_spec; eauto).
  destruct (assoc X (nth s TR [])) as [t|] eqn:Ea.
  - exists t. split; [exact Ea|]. apply assoc_In in Ea.
    destruct (R1 _ _ Ea) as (Ht & _ & J & HJ & _ & Hse). split; [assumption|].
    apply (set_eqb_spec _ _ Hse).
    apply (goto_items g la_order an0 an gan_first_seq ntm (wf_tok WF) gan_first_lt _ _ _ _ _ _ HJ (la_all s Hs)). auto.
  - exfalso. apply (R2 X); [| |assumption].
    + apply (wf_sym WF pr); [eapply nth_error_In; eauto|eapply nth_error_In; eauto].
    + intros E. assert (Hi : In (p, S k, la) (goto_kernel g X (items s))) by (apply goto_kernel_In; eauto).
      rewrite E in Hi. destruct Hi.
Qed.

Lemma a_c_goto_fwd : c_goto_fwd g an TR = true.
Proof.
  unfold c_goto_fwd, forall_items, forall_st. apply forallb_seq. intros s Hs. apply forallb_forall.
  intros [[p k] la] Hin. destruct (nth_error g p) as [pr|] eqn:Hp; [|reflexivity].
  destruct (nth_error (rhs pr) k) as [X|] eqn:Hk; [|reflexivity].
  destruct (a_goto_fwd _ _ _ _ _ _ Hin Hp Hk) as (s' & -> & H1 & H2).
  apply andb_true_iff. split; [now apply Nat.ltb_lt|now apply mem_item_In].
Qed.

Lemma a_c_goto_bwd : c_goto_bwd g an TR = true.
Proof.
  unfold c_goto_bwd, forall_st. apply forallb_seq. intros s Hs. apply forallb_forall.
  intros [X s'] Hin. destruct (rw_ok s Hs) as [R1 _].
  destruct (R1 _ _ Hin) as (Ht & _ & J & HJ & HJne & Hse).
  destruct (goto_nonempty g la_order an0 an gan_first_seq ntm (wf_tok WF) gan_first_lt _ _ _ HJ (la_all s Hs) HJne) as [_ (it & Hit & Hex)].
  apply andb_true_intro; split; [apply andb_true_intro; split|].
  - now apply Nat.ltb_lt.
  - apply existsb_exists. exists it. split; [assumption|]. destruct it as [[p k] la]. exact Hex.
  - apply forallb_forall. intros [[p [|k]] la] Hi; [reflexivity|].
    apply (set_eqb_spec _ _ Hse) in Hi.
    apply (goto_items g la_order an0 an gan_first_seq ntm (wf_tok WF) gan_first_lt _ _ _ _ _ _ HJ (la_all s Hs)) in Hi. destruct Hi as [Hi He].
    apply expects_spec in He. destruct He as (pr & Hp & Hk). rewrite Hp, Hk.
    apply andb_true_iff. split; [now apply sym_eqb_eq|now apply mem_item_In].
Qed.

Lemma a_c_reach : c_reach an TR = true.
Proof.
  unfold c_reach. apply forallb_forall. intros s Hs. apply in_seq in Hs.
  destruct gan_linv as ((_ & _ & _ & _ & H) & _). destruct (H s) as (s' & X & Hlt & Ha); [unfold nst in Hs; simpl in Hs; lia|].
  apply existsb_exists. exists s'. split; [apply in_seq; lia|].
  apply existsb_exists. exists (X, s). split; [now apply assoc_In|]. simpl.
  rewrite Nat.eqb_refl. unfold tr_at. rewrite Ha. simpl. apply Nat.eqb_refl.
Qed.

Theorem gen_auto_valid_an : auto_valid g ntm an TR = true.
Proof.
  unfold auto_valid. rewrite a_c_shape, a_c_state0, (gen_f_first g nn N F GF (wf_ne WF) (wf_lhs WF) an eq_refl eq_refl), a_x_null, a_c_first, a_c_closed, a_c_just,
    a_c_goto_fwd, a_c_goto_bwd, a_c_reach. reflexivity.
Qed.

End AutoP.

Lemma first_rhs_mono an F F' : forall gamma a,
  (forall m b, In (NT m) gamma -> In b (nth m F []) -> In b (nth m F' [])) ->
  In a (first_rhs an F gamma) -> In a (first_rhs an F' gamma).
Proof.
  induction gamma as [|[b|m] gamma IH]; intros a H Hin; simpl in *; auto.
  apply in_app_or in Hin. apply in_or_app. destruct Hin as [Hin|Hin].
  - left. apply H; auto.
  - right. destruct (nullable_nt an m); [|assumption]. apply IH; auto.
Qed.

(** Tables built from a canonical automaton pass the LR validator: for ANY automaton passing [auto_valid],
    e.g. gocc's own dump, not only for the one the model generates *)
Section TablesP.
Variable g : grammar.
Variables nn ntm : nat.
Variable symbols : list sym.
Variable la_order : list nat.
Variable p_acts : list bool.
Variable terr : nat.
Variable an : annot.
Variable tr : transitions.
Variable rows : list srow.
Hypothesis WF : gen_wf g nn ntm symbols la_order terr = true.
Hypothesis AV : auto_valid g ntm an tr = true.
Hypothesis ROWS : all_some (map (gen_row g nn ntm terr an tr) (seq 0 (nst an))) = Some rows.

Lemma FIRST_sem_ok pr k la b : In pr g -> 0 < la < ntm ->
  FIRST_sem g (skipn k (rhs pr)) la b -> 0 < b < ntm.
Proof.
  intros Hpr Hla [H|[_ ->]]; [|assumption].
  apply (proj2 (first_s_body g)) in H. destruct H as [H|(pr' & Hpr' & H)].
  - apply In_skipn in H. destruct (wf_T WF _ _ Hpr H). lia.
  - destruct (wf_T WF _ _ Hpr' H). lia.
Qed.

Lemma CI_facts gamma it : CI g gamma it -> let '(p, k, la) := it in
  exists pr, nth_error g p = Some pr /\ 0 < la < ntm /\ (p = 0 -> la = EOFT /\ (k = 0 -> gamma = [])).
Proof.
  pose proof (wf_ntm WF) as Hntm. destruct (wf_start WF) as (pr0 & Hp0 & Hl0 & HS0).
  induction 1 as [|gamma p k la pr B q prq b _ IH Hp Hk Hq HB Hf|gamma p k la pr X _ IH Hp Hk]; cbv beta iota in *.
  - exists pr0. split; [assumption|]. split; [unfold EOFT; lia|]. auto.
  - destruct IH as (pr1 & Hp1 & Hla & _). rewrite Hp in Hp1. injection Hp1 as <-. subst B.
    exists prq. split; [assumption|]. split.
    + apply (FIRST_sem_ok pr (S k) la b); [eapply nth_error_In; eauto|assumption|assumption].
    + intros ->. exfalso. rewrite Hp0 in Hq. injection Hq as <-.
      apply (HS0 pr); [eapply nth_error_In; eauto|eapply nth_error_In; eauto].
  - destruct IH as (pr1 & Hp1 & Hla & H0). rewrite Hp in Hp1. injection Hp1 as <-.
    exists pr. split; [assumption|]. split; [assumption|].
    intros E0. destruct (H0 E0) as [-> _]. split; [reflexivity|discriminate].
Qed.

Lemma CI_dot0_inv gamma it : CI g gamma it -> let '(q, k0, _) := it in k0 = 0 -> q <> 0 ->
  exists p k la pr prq, CI g gamma (p, k, la) /\ nth_error g p = Some pr /\ nth_error g q = Some prq /\
                        nth_error (rhs pr) k = Some (NT (lhs prq)).
Proof.
  destruct 1 as [|gamma p k la pr B q prq b H Hp Hk Hq <- _|gamma p k la pr X _ _ _]; cbv beta iota.
  - intros _ E. now elim E.
  - intros _ _. exists p, k, la, pr, prq. auto.
  - discriminate.
Qed.

Definition gtb : tables := {| t_states := rows; t_prods := gen_prods g p_acts; t_err := terr; t_gate := false |}.
Notation tb := gtb.
Notation items := (items_of an).
Notation nst := (nst an).
Notation cell := (cell g an tr).

Lemma item_facts s p k la : In (p, k, la) (items s) ->
  s < nst /\ exists pr, nth_error g p = Some pr /\ k <= length (rhs pr) /\ 0 < la < ntm /\
                        (p = 0 -> la = EOFT /\ (k = 0 -> s = 0)).
Proof.
  intros Hin. pose proof (items_lt an _ _ Hin) as Hs. split; [assumption|].
  destruct (state_CI _ _ _ _ AV s Hs) as (gamma & Hg & A3). apply A3 in Hin.
  destruct (CI_facts _ _ Hin) as (pr & H1 & H3 & H4).
  exists pr. split; [assumption|]. split; [exact (CI_wf g gamma _ _ _ _ Hin H1)|]. split; [assumption|].
  intros E. destruct (H4 E) as [H5 H6]. split; [assumption|]. intros Ek. rewrite (H6 Ek) in Hg.
  unfold path in Hg. simpl in Hg. now inversion Hg.
Qed.

Lemma items_kwf s : forall p k la pr, In (p, k, la) (items s) -> nth_error g p = Some pr -> k <= length (rhs pr).
Proof.
  intros p k la pr Hin Hp. destruct (item_facts _ _ _ _ Hin) as (_ & pr' & Hp' & Hk & _).
  rewrite Hp in Hp'. inversion Hp'; subst. assumption.
Qed.

Lemma nstates_eq : nstates tb = nst.
Proof. apply (all_some_map_seq _ _ _ ROWS). Qed.

Lemma row_at s : s < nst -> exists acts,
  nth_error rows s = Some {| s_actions := acts; s_recover := can_recover g terr (items s); s_gotos := goto_row nn tr s |} /\
  length acts = ntm /\ forall a, a < ntm -> exists w, cell s a = Some (w, []) /\ nth_error acts a = Some w.
Proof.
  intros Hs. destruct (proj2 (all_some_map_seq _ _ _ ROWS) s Hs) as (r & Hr & Hn). unfold gen_row in Hr.
  destruct (action_row g ntm an tr s) as [acts|] eqn:EA; [|discriminate]. injection Hr as <-.
  exists acts. split; [exact Hn|]. unfold action_row in EA. destruct (all_some_map_seq _ _ _ EA) as [H1 H2].
  split; [assumption|]. intros a Ha. destruct (H2 a Ha) as (w & Hw & Hn'). exists w. split; [|assumption].
  unfold action_cell in Hw. destruct (cell s a) as [[w' [|c cf]]|]; try discriminate. now injection Hw as ->.
Qed.

Lemma row_inv s r : nth_error rows s = Some r -> s < nst /\ exists acts,
  r = {| s_actions := acts; s_recover := can_recover g terr (items s); s_gotos := goto_row nn tr s |} /\
  length acts = ntm /\ forall a, a < ntm -> exists w, cell s a = Some (w, []) /\ nth_error acts a = Some w.
Proof.
  intros Hr. assert (Hs : s < nst) by (rewrite <- nstates_eq; apply nth_error_Some; simpl; congruence).
  split; [assumption|]. destruct (row_at s Hs) as (acts & Hn & H). rewrite Hr in Hn. injection Hn as ->. eauto.
Qed.

Lemma nterms_eq : Validate.nterms tb = ntm.
Proof.
  destruct (row_at 0 (nst_pos _ _ _ _ AV)) as (acts & Hn & L1 & _).
  unfold Validate.nterms. simpl. destruct rows as [|r rs]; [discriminate|]. injection Hn as ->. exact L1.
Qed.

Lemma goto_row_length s : length (goto_row nn tr s) = nn.
Proof. unfold goto_row. now rewrite map_length, seq_length. Qed.

Lemma nnts_eq : nnts tb = nn.
Proof.
  destruct (row_at 0 (nst_pos _ _ _ _ AV)) as (acts & Hn & _).
  unfold nnts. simpl. destruct rows as [|r rs]; [discriminate|]. injection Hn as ->. apply goto_row_length.
Qed.

Lemma action_at_spec s a x : action_at tb s a = Some x <-> s < nst /\ a < ntm /\ cell s a = Some (x, []).
Proof.
  unfold action_at. simpl. split.
  - destruct (nth_error rows s) as [r|] eqn:Er; [|discriminate]. intros Hx.
    destruct (row_inv _ _ Er) as (Hs & acts & -> & L1 & L2). simpl in Hx.
    assert (Hlt : a < ntm) by (rewrite <- L1; apply nth_error_Some; congruence).
    destruct (L2 a Hlt) as (w & Hc & Hw). rewrite Hx in Hw. injection Hw as <-. auto.
  - intros (Hs & Hlt & Hc). destruct (row_at s Hs) as (acts & Hn & _ & L2). rewrite Hn. simpl.
    destruct (L2 a Hlt) as (w & Hc' & Hw). rewrite Hc in Hc'. injection Hc' as <-. assumption.
Qed.

Lemma cell_total s a : s < nst -> a < ntm -> exists w, cell s a = Some (w, []).
Proof.
  intros Hs Ha. destruct (row_at s Hs) as (acts & _ & _ & L2). destruct (L2 a Ha) as (w & Hc & _). eauto.
Qed.

Lemma goto_nat_spec s n : s < nst -> n < nn -> goto_nat tb s n = tr_at tr s (NT n).
Proof.
  intros Hs Hn. destruct (row_at s Hs) as (acts & Hr & _).
  unfold goto_nat, goto_at. simpl. rewrite Hr. simpl. unfold goto_row.
  rewrite nth_error_map, (nth_error_seq0 _ _ Hn). simpl.
  destruct (tr_at tr s (NT n)) as [t|]; [|reflexivity].
  destruct (Z.of_nat t <? 0)%Z eqn:E; [apply Z.ltb_lt in E; lia|]. now rewrite Nat2Z.id.
Qed.

Lemma cell_in s a w x : cell s a = Some (w, []) ->
  (w = Some x <-> exists it, In it (items s) /\ cand g it a (target tr s a) = Some x).
Proof. intros H. rewrite <- in_cands. now apply row_free. Qed.

Lemma cand_spec s it a x : In it (items s) -> cand g it a (target tr s a) = Some x ->
  spec_cand g (fun i => In i (items s)) a (kind x) /\ (forall t, x = Shift t -> t = target tr s a).
Proof. intros Hin. apply cand_sound; [apply items_kwf|assumption]. Qed.

Lemma action_spec s a x : action_at tb s a = Some (Some x) ->
  s < nst /\ a < ntm /\ spec_cand g (fun i => In i (items s)) a (kind x) /\ (forall t, x = Shift t -> t = target tr s a).
Proof.
  intros H. apply action_at_spec in H. destruct H as (Hs & Ha & Hc). split; [assumption|]. split; [assumption|].
  destruct (proj1 (cell_in _ _ _ _ Hc) eq_refl) as (it & Hin & Hcd). exact (cand_spec _ _ _ _ Hin Hcd).
Qed.

Lemma shift_tr s a t : action_at tb s a = Some (Some (Shift t)) ->
  s < nst /\ 1 < a /\ tr_at tr s (T a) = Some t.
Proof.
  intros H. destruct (action_spec _ _ _ H) as (Hs & _ & [_ Hsp] & Ht). simpl in Hsp. split; [assumption|].
  destruct Hsp as (p & k & la & pr & Hi & Hp & Hk).
  split; [apply (wf_T WF pr); eapply nth_error_In; eauto|].
  destruct (goto_fwd_P _ _ _ _ AV _ _ _ _ _ _ Hi Hp Hk) as (s' & Htr & _).
  rewrite (Ht t eq_refl). unfold target. now rewrite Htr.
Qed.

Lemma tr_shift s a t p k la pr : In (p, k, la) (items s) -> nth_error g p = Some pr ->
  nth_error (rhs pr) k = Some (T a) -> tr_at tr s (T a) = Some t ->
  action_at tb s a = Some (Some (Shift t)).
Proof.
  intros Hin Hp Hk Htr. pose proof (items_lt an _ _ Hin) as Hs.
  destruct (wf_T WF pr a) as [Ha1 Ha2]; [eapply nth_error_In; eauto|eapply nth_error_In; eauto|].
  destruct (cell_total s a Hs Ha2) as [w Hc]. apply action_at_spec. split; [assumption|]. split; [assumption|].
  rewrite Hc. f_equal. f_equal. apply (cell_in _ _ _ _ Hc).
  destruct (cand_complete g (fun i => In i (items s)) a (target tr s a) SShift) as (it & y & Hi & Hy & Hkd).
  { split; [unfold INVALIDT; lia|]. simpl. exists p, k, la, pr. auto. }
  exists it. split; [assumption|]. destruct y as [u| |]; try discriminate.
  destruct (cand_spec _ _ _ _ Hi Hy) as [_ Hu]. rewrite (Hu u eq_refl) in Hy. rewrite Hy.
  unfold target. now rewrite Htr.
Qed.

Lemma reduce_item s a p : action_at tb s a = Some (Some (Reduce p)) ->
  p <> 0 /\ exists pr, nth_error g p = Some pr /\ In (p, length (rhs pr), a) (items s).
Proof.
  intros H. destruct (action_spec _ _ _ H) as (Hs & _ & [_ Hsp] & _). simpl in Hsp.
  destruct Hsp as (Hne & pr & Hp & Hi). split; [|eauto].
  intros ->. destruct (item_facts _ _ _ _ Hi) as (_ & _ & _ & _ & _ & H0). destruct (H0 eq_refl) as [-> _]. auto.
Qed.

Lemma accept_item s a : action_at tb s a = Some (Some Accept) ->
  a = EOFT /\ exists pr0, nth_error g 0 = Some pr0 /\ length (rhs pr0) = 1 /\ In (0, 1, EOFT) (items s).
Proof.
  intros H. destruct (action_spec _ _ _ H) as (Hs & _ & [_ Hsp] & _). simpl in Hsp.
  destruct Hsp as (-> & pr0 & Hp & Hi). split; [reflexivity|]. exists pr0.
  destruct (wf_start WF) as (pr0' & Hp0 & Hl0 & _).
  assert (E0 : Some pr0 = Some pr0') by (transitivity (nth_error g 0); [symmetry; exact Hp|exact Hp0]).
  inversion E0; subst pr0'. rewrite Hl0 in Hi. auto.
Qed.

Lemma complete_action s p la pr : In (p, length (rhs pr), la) (items s) -> nth_error g p = Some pr ->
  action_at tb s la = Some (Some (if Nat.eqb p 0 then Accept else Reduce p)) /\ (p = 0 -> la = EOFT).
Proof.
  intros Hin Hp. destruct (item_facts _ _ _ _ Hin) as (Hs & _ & _ & _ & Hla & H0).
  destruct (cell_total s la Hs (proj2 Hla)) as [w Hc]. split.
  - apply action_at_spec. split; [assumption|]. split; [apply Hla|]. rewrite Hc. f_equal. f_equal.
    apply (cell_in _ _ _ _ Hc). exists (p, length (rhs pr), la). split; [assumption|].
    unfold cand. replace (Nat.eqb la INVALIDT) with false by (symmetry; apply Nat.eqb_neq; unfold INVALIDT; lia).
    rewrite Hp, Nat.leb_refl, Nat.eqb_refl. destruct (Nat.eqb p 0) eqn:E0; simpl.
    + apply Nat.eqb_eq in E0. destruct (H0 E0) as [-> _]. reflexivity.
    + reflexivity.
  - intros E0. apply (H0 E0).
Qed.

Lemma trans_tr s X s' : s < nst -> trans tb s X = Some s' -> tr_at tr s X = Some s'.
Proof.
  intros Hs. destruct X as [a|n]; simpl.
  - destruct (action_at tb s a) as [[[t|q|]|]|] eqn:E; try discriminate. intros H; inversion H; subst t.
    apply (shift_tr _ _ _ E).
  - intros H. assert (Hn : n < nn).
    { rewrite <- nnts_eq. unfold goto_nat, goto_at in H.
      destruct (nth_error (t_states tb) s) as [r|] eqn:Er; [|discriminate].
      destruct (nth_error (s_gotos r) n) eqn:En; [|discriminate].
      destruct (row_at s Hs) as (acts & Hr & _). simpl in Er. rewrite Hr in Er.
      inversion Er; subst r. simpl in En. rewrite nnts_eq, <- (goto_row_length s). apply nth_error_Some. congruence. }
    now rewrite goto_nat_spec in H.
Qed.

Lemma tr_trans s p k la pr X s' : In (p, k, la) (items s) -> nth_error g p = Some pr ->
  nth_error (rhs pr) k = Some X -> tr_at tr s X = Some s' -> trans tb s X = Some s'.
Proof.
  intros Hin Hp Hk Htr. destruct X as [a|n]; simpl.
  - now rewrite (tr_shift _ _ _ _ _ _ _ Hin Hp Hk Htr).
  - rewrite goto_nat_spec; [assumption|apply (items_lt an _ _ Hin)|].
    apply (wf_NT WF pr); eapply nth_error_In; eauto.
Qed.

Lemma kernel_ok_tr s X s' : s < nst -> tr_at tr s X = Some s' -> kernel_ok g an s X s' = true.
Proof.
  intros Hs Htr. destruct (goto_bwd_P _ _ _ _ AV _ _ _ Hs Htr) as (Hs' & (p & k & la & pr & Hi & Hp & Hk) & Hb).
  unfold kernel_ok. apply andb_true_intro; split; [apply andb_true_intro; split|].
  - apply negb_true_iff. apply Nat.eqb_neq. apply (target_not_0 _ _ _ _ AV s X s' Hs Htr).
  - destruct (goto_fwd_P _ _ _ _ AV _ _ _ _ _ _ Hi Hp Hk) as (s2 & Htr2 & _ & Hi2).
    rewrite Htr in Htr2. inversion Htr2; subst s2. apply existsb_exists. exists (p, S k, la). auto.
  - apply forallb_forall. intros [[q [|j]] b] Hq; [reflexivity|].
    destruct (Hb _ _ _ Hq) as (prq & Hpq & Hkq & Hiq). rewrite Hpq, Hkq.
    apply andb_true_iff. split; [now apply sym_eqb_eq|now apply mem_item_In].
Qed.

Lemma t_shape_ok : shape_ok g tb an = true.
Proof.
  unfold shape_ok. rewrite nstates_eq, nterms_eq, nnts_eq. repeat (apply andb_true_intro; split).
  - apply Nat.ltb_lt. apply (nst_pos _ _ _ _ AV).
  - apply Nat.eqb_refl.
  - apply forallb_forall. intros r Hr. apply In_nth_error in Hr. destruct Hr as [s Hr].
    pose proof Hr as Hr'. apply row_inv in Hr'. destruct Hr' as (Hs & acts & -> & L1 & _). simpl in Hr |- *.
    rewrite L1, goto_row_length, !Nat.eqb_refl. simpl.
    apply andb_true_iff. split.
    + apply forallb_forall. intros w Hw. apply In_nth_error in Hw. destruct Hw as [a Hw].
      assert (Hact : action_at tb s a = Some w).
      { unfold action_at. simpl. rewrite Hr. exact Hw. }
      destruct w as [[t|q|]|]; auto.
      * destruct (shift_tr _ _ _ Hact) as (_ & _ & Htr).
        apply Nat.ltb_lt. apply (goto_bwd_P _ _ _ _ AV _ _ _ Hs Htr).
      * destruct (reduce_item _ _ _ Hact) as (_ & pr & Hp & _). apply Nat.ltb_lt.
        apply nth_error_Some. congruence.
    + apply forallb_forall. intros z Hz. unfold goto_row in Hz. apply in_map_iff in Hz.
      destruct Hz as (n & <- & _). apply Z.ltb_lt.
      destruct (tr_at tr s (NT n)) as [t|] eqn:Et; [|lia].
      pose proof (proj1 (goto_bwd_P _ _ _ _ AV _ _ _ Hs Et)). lia.
  - apply Nat.eqb_eq. simpl. unfold gen_prods. rewrite map_length, combine_length, seq_length. lia.
  - apply forallb_forall. intros [pw pr] Hin. simpl in Hin. unfold gen_prods in Hin.
    apply combine_map_fst in Hin; [|apply seq_length]. destruct Hin as (j & -> & Hpr). simpl.
    rewrite !Nat.eqb_refl. simpl. apply andb_true_iff. split; [apply Nat.ltb_lt, (wf_lhs WF _ Hpr)|].
    apply forallb_forall. intros [a|n] HX; apply Nat.ltb_lt.
    + apply (wf_T WF pr a Hpr HX).
    + apply (wf_NT WF pr n Hpr HX).
  - apply Nat.ltb_lt, (wf_ntm WF).
  - apply Nat.ltb_lt, (wf_terr WF).
Qed.

Lemma t_items_wf : items_wf g tb an = true.
Proof.
  unfold items_wf, forall_states. apply forallb_seq. intros s Hs. apply forallb_forall.
  intros [[p k] la] Hin. destruct (item_facts _ _ _ _ Hin) as (_ & pr & Hp & Hk & Hla & _).
  rewrite Hp, nterms_eq. apply andb_true_iff. split; [now apply Nat.leb_le|apply Nat.ltb_lt; lia].
Qed.

Lemma t_b_init : b_init an = true.
Proof.
  unfold b_init. apply forallb_forall. intros [[p k] la] Hin. apply Nat.eqb_eq.
  eapply (state0_dot0 _ _ _ _ AV); eauto.
Qed.

Lemma t_b_trans : b_trans g tb an = true.
Proof.
  unfold b_trans, forall_states. apply forallb_seq. intros s Hs. rewrite nstates_eq in Hs.
  assert (K : forall X, match trans tb s X with Some s' => kernel_ok g an s X s' | None => true end = true).
  { intros X. destruct (trans tb s X) as [s'|] eqn:E; [|reflexivity]. apply kernel_ok_tr; [assumption|].
    now apply trans_tr. }
  apply andb_true_iff. split; [unfold forall_terms|unfold forall_nts]; apply forallb_seq; intros i _; apply K.
Qed.

Lemma t_b_actions : b_actions g tb an = true.
Proof.
  unfold b_actions, forall_states. apply forallb_seq. intros s Hs.
  unfold forall_terms. apply forallb_seq. intros a Ha.
  destruct (action_at tb s a) as [[[t|p|]|]|] eqn:E; try reflexivity.
  - destruct (shift_tr _ _ _ E) as (_ & H1 & _). apply negb_true_iff. apply Nat.eqb_neq. unfold EOFT. lia.
  - destruct (reduce_item _ _ _ E) as (Hne & pr & Hp & Hi). rewrite Hp.
    apply andb_true_iff. split; [now apply mem_item_In|]. apply negb_true_iff. now apply Nat.eqb_neq.
  - destruct (accept_item _ _ E) as (-> & pr0 & Hp & Hl & Hi). rewrite Hp, Hl. simpl.
    now apply mem_item_In.
Qed.

Lemma t_b_demand : b_demand g tb an = true.
Proof.
  unfold b_demand, forall_states. apply forallb_seq. intros s Hs. rewrite nstates_eq in Hs.
  apply forallb_forall. intros [[p [|k]] la] Hin; [|reflexivity].
  destruct (item_facts _ _ _ _ Hin) as (_ & pr & Hp & _ & _ & H0).
  destruct (Nat.eqb p 0) eqn:E0.
  - apply Nat.eqb_eq in E0. apply Nat.eqb_eq. now apply H0.
  - apply Nat.eqb_neq in E0. rewrite Hp.
    destruct (state_CI _ _ _ _ AV s Hs) as (gamma & Hg & A3). apply A3 in Hin.
    destruct (CI_dot0_inv _ _ Hin eq_refl E0) as (p' & k' & la' & pr' & prq & Hc & Hp' & Hq & Hk').
    rewrite Hp in Hq. inversion Hq; subst prq. apply A3 in Hc.
    destruct (goto_fwd_P _ _ _ _ AV _ _ _ _ _ _ Hc Hp' Hk') as (s' & Htr & _).
    rewrite goto_nat_spec; [now rewrite Htr|assumption|].
    apply (wf_NT WF pr'); eapply nth_error_In; eauto.
Qed.

Theorem tables_valid_backward : valid_backward g tb an = true.
Proof.
  unfold valid_backward. now rewrite t_shape_ok, t_items_wf, t_b_init, t_b_trans, t_b_actions, t_b_demand.
Qed.

Lemma t_f_closure : f_closure g tb an = true.
Proof.
  unfold f_closure, forall_states. apply forallb_seq. intros s Hs. apply forallb_forall.
  intros [[p k] la] Hin. destruct (item_facts _ _ _ _ Hin) as (_ & pr & Hp & _). rewrite Hp.
  destruct (nth_error (rhs pr) k) as [[a|B]|] eqn:Hk; try reflexivity.
  apply forallb_forall. intros q Hq. apply forallb_forall. intros b Hb. apply mem_item_In.
  destruct (prods_of_inv _ _ _ Hq) as (prq & Hq' & HB).
  eapply (closed_P _ _ _ _ AV); eauto.
Qed.

Lemma t_f_goto : f_goto g tb an = true.
Proof.
  unfold f_goto, forall_states. apply forallb_seq. intros s Hs. apply forallb_forall.
  intros [[p k] la] Hin. destruct (item_facts _ _ _ _ Hin) as (_ & pr & Hp & Hkl & _). rewrite Hp.
  destruct (nth_error (rhs pr) k) as [X|] eqn:Hk.
  - destruct (goto_fwd_P _ _ _ _ AV _ _ _ _ _ _ Hin Hp Hk) as (s' & Htr & _ & Hi).
    rewrite (tr_trans _ _ _ _ _ _ _ Hin Hp Hk Htr). now apply mem_item_In.
  - apply nth_error_None in Hk. assert (k = length (rhs pr)) by lia. subst k.
    destruct (complete_action _ _ _ _ Hin Hp) as [Ha H0]. rewrite Ha.
    destruct (Nat.eqb p 0) eqn:E0.
    + apply Nat.eqb_eq in E0. rewrite (H0 E0). reflexivity.
    + rewrite Nat.eqb_refl. reflexivity.
Qed.

Theorem tables_valid_forward : valid_forward g tb an = true.
Proof.
  unfold valid_forward. rewrite t_shape_ok, t_items_wf, t_f_closure, t_f_goto.
  rewrite (AV_f_first _ _ _ _ AV). simpl.
  unfold f_start. rewrite !andb_true_r. apply mem_item_In. apply (state0_start _ _ _ _ AV).
Qed.

Theorem tables_no_error_shift : (forall pr, In pr g -> ~ In (T terr) (rhs pr)) -> no_error_shift tb = true.
Proof.
  intros NE. unfold no_error_shift, forall_states. apply forallb_seq. intros s Hs. simpl.
  destruct (action_at tb s terr) as [[[t|p|]|]|] eqn:E; try reflexivity. exfalso.
  destruct (action_spec _ _ _ E) as (_ & _ & [_ Hsp] & _). simpl in Hsp.
  destruct Hsp as (p & k & la & pr & Hi & Hp & Hk).
  apply (NE pr); eapply nth_error_In; eauto.
Qed.

Lemma cjust_just is0 : forall rest acc, cjust_list g an is0 acc rest = true -> just_list g an acc rest = true.
Proof.
  induction rest as [|[[q k] b] rest IH]; intros acc H; [reflexivity|].
  cbn [cjust_list just_list] in *. apply andb_true_iff in H. destruct H as [H1 H2]. rewrite (IH _ H2), andb_true_r.
  destruct k as [|k]; [|reflexivity].
  (* dot 0: the start item of state 0 has production 0; any other item has the same justification in both checks *)
  apply orb_true_iff in H1. apply orb_true_iff. destruct H1 as [H1|H1]; [left|now right].
  apply andb_prop in H1. destruct H1 as [H1 _]. apply andb_prop in H1. apply H1.
Qed.

Lemma t_x_closure : x_closure g tb an = true.
Proof.
  unfold x_closure, forall_states. apply forallb_seq. intros s Hs. rewrite nstates_eq in Hs.
  pose proof (AV_just _ _ _ _ AV) as H.
  apply (cjust_just (Nat.eqb s 0)). apply (forall_st_P _ _ H s Hs).
Qed.

Lemma t_x_noeof : x_noeof g = true.
Proof.
  unfold x_noeof. apply forallb_forall. intros pr Hpr. apply forallb_forall. intros [a|n] HX; [|reflexivity].
  apply negb_true_iff. apply Nat.eqb_neq. destruct (wf_T WF pr a Hpr HX). unfold EOFT. lia.
Qed.

Lemma t_x_recover : x_recover tb = true.
Proof.
  unfold x_recover. apply forallb_forall. intros r Hr. simpl in Hr. apply In_nth_error in Hr. destruct Hr as [s Hr].
  pose proof Hr as Hr'. apply row_inv in Hr'. destruct Hr' as (Hs & acts & -> & _). simpl.
  destruct (can_recover g terr (items s)) eqn:E; [|reflexivity]. simpl.
  unfold can_recover in E. apply existsb_exists in E. destruct E as ([[p k] la] & Hin & E).
  apply andb_true_iff in E. destruct E as [Ek E]. apply Nat.eqb_eq in Ek. subst k.
  destruct (nth_error g p) as [pr|] eqn:Hp; [|discriminate].
  destruct (rhs pr) as [|[t|n] rest] eqn:Er; try discriminate. apply Nat.eqb_eq in E. subst t.
  assert (Hk : nth_error (rhs pr) 0 = Some (T terr)) by now rewrite Er.
  destruct (goto_fwd_P _ _ _ _ AV _ _ _ _ _ _ Hin Hp Hk) as (s' & Htr & _).
  pose proof (tr_shift _ _ _ _ _ _ _ Hin Hp Hk Htr) as Hact.
  unfold action_at in Hact. simpl in Hact. rewrite Hr in Hact. simpl in Hact. now rewrite Hact.
Qed.

(** only the productions occurring in items need be productive ([x_prod]) *)
Section Reach.
Hypothesis XP : x_prod g tb an = true.

Definition in_items (pr : prod) : Prop :=
  exists s p k la, In (p, k, la) (items_of an s) /\ nth_error g p = Some pr.

Lemma in_items_productive pr : in_items pr -> flag_rhs true (prod_flags g tb) (rhs pr) = true.
Proof.
  intros (s & p & k & la & Hin & Hp).
  apply (forall_item_prods_P g tb an _ XP s p k la pr); auto.
  rewrite nstates_eq. apply (items_lt an _ _ Hin).
Qed.

Lemma in_items_closed pr m : in_items pr -> In (NT m) (rhs pr) ->
  forall q prq, nth_error g q = Some prq -> lhs prq = m -> in_items prq.
Proof.
  intros (s & p & k & la & Hin & Hp) Hm q prq Hq Hl.
  destruct (state_CI _ _ _ _ AV s (items_lt an _ _ Hin)) as (gamma & Hg & A3). apply A3 in Hin.
  destruct (CI_dot_back _ _ _ Hin) as [gamma0 H0].
  apply In_nth_error in Hm. destruct Hm as [j Hj].
  assert (Hjl : j < length (rhs pr)) by (apply nth_error_Some; congruence).
  pose proof (CI_dot_fwd _ _ _ _ _ H0 Hp j (Nat.lt_le_incl _ _ Hjl)) as Hc.
  destruct (items_sup _ _ _ _ AV _ _ Hc) as (s' & _ & Hin').
  (* a look-ahead exists because the rest of the body is productive *)
  assert (Hprod : exists u, ders g (skipn (S j) (rhs pr)) u).
  { apply ders_all. intros X HX. apply In_skipn in HX.
    apply (flag_rhs_prod_P g tb (rhs pr)); [|assumption].
    apply in_items_productive. exists s', p, j, la. auto. }
  destruct Hprod as [u Hu].
  pose proof (AV_f_first _ _ _ _ AV) as FF.
  destruct (first_seq_nonempty g an _ _ la FF Hu) as [b Hb].
  exists s', q, 0, b. split; [|assumption].
  exact (closed_P _ _ _ _ AV s' p j la pr m q prq b Hin' Hp Hj Hq Hl Hb).
Qed.

Lemma cfirst_sub_first m0 : forall k m,
  (forall q prq, nth_error g q = Some prq -> lhs prq = m -> in_items prq) ->
  forall a, In a (nth m (cfirst_iter g an m0 k) []) -> In a (nth m (first_iter g an (prod_flags g tb) m0 k) []).
Proof.
  induction k as [|k IH]; intros m Hm a Ha; [exact Ha|]. simpl in Ha |- *.
  apply cfirst_step_In in Ha. destruct Ha as (Hlt & pr & Hpr & Hl & Ha).
  apply In_nth_error in Hpr as Hq. destruct Hq as [q Hq]. pose proof (Hm _ _ Hq Hl) as HR.
  unfold first_step. rewrite nth_map_seq by assumption. apply In_dedup. apply in_flat_map.
  exists pr. split; [assumption|]. apply Nat.eqb_eq in Hl. rewrite Hl, (in_items_productive _ HR). simpl.
  apply (first_rhs_mono an (cfirst_iter g an m0 k)); [|assumption].
  intros m' b Hm' Hb. apply IH; [|assumption]. intros q' prq' Hq' Hl'. eapply in_items_closed; eauto.
Qed.

Lemma t_x_first : x_first g tb an = true.
Proof.
  unfold x_first, forall_item_prods, forall_states. apply forallb_seq. intros s Hs. apply forallb_forall.
  intros [[p k] la] Hin.
  destruct (item_facts _ _ _ _ Hin) as (_ & pr & Hp & _). rewrite Hp.
  apply forallb_forall. intros [a|n] HX; [reflexivity|]. apply forallb_forall. intros a Ha. apply mem_nat_In.
  unfold first_sets. apply cfirst_sub_first.
  - intros q prq Hq Hl. apply (in_items_closed pr n) with (q := q); auto. exists s, p, k, la. auto.
  - exact (c_first_In g an n a (AV_c_first _ _ _ _ AV) Ha).
Qed.

Theorem tables_x_checks_reach : x_checks g tb an = true.
Proof.
  unfold x_checks. pose proof (AV_x_null _ _ _ _ AV) as H.
  now rewrite H, t_x_first, XP, t_x_noeof, t_x_recover, t_x_closure.
Qed.
End Reach.

Section Productive.
Definition all_productive : bool :=
  forallb (fun pr => flag_rhs true (flag_iter g true nn (length g)) (rhs pr)) g.
Hypothesis PROD : all_productive = true.

Lemma t_x_prod : x_prod g tb an = true.
Proof.
  unfold x_prod, forall_item_prods, forall_states. apply forallb_seq. intros s Hs. apply forallb_forall.
  intros [[p k] la] Hin. destruct (item_facts _ _ _ _ Hin) as (_ & pr & Hp & _). rewrite Hp.
  unfold prod_flags. rewrite nnts_eq. unfold all_productive in PROD. rewrite forallb_forall in PROD.
  apply PROD. eapply nth_error_In; eauto.
Qed.

Theorem tables_x_checks : x_checks g tb an = true.
Proof. exact (tables_x_checks_reach t_x_prod). Qed.
End Productive.

End TablesP.

Definition no_err_in_bodies (g : grammar) (terr : nat) : bool :=
  forallb (fun pr => forallb (fun X => negb (sym_eqb X (T terr))) (rhs pr)) g.

Lemma no_err_in_bodies_P g terr : no_err_in_bodies g terr = true -> forall pr, In pr g -> ~ In (T terr) (rhs pr).
Proof.
  unfold no_err_in_bodies. rewrite forallb_forall. intros H pr Hpr Hin. specialize (H _ Hpr).
  rewrite forallb_forall in H. specialize (H _ Hin). simpl in H. rewrite Nat.eqb_refl in H. discriminate.
Qed.

(** What [gen_run] and [GenAuto.gen_run_auto] do before they fill the rows: the well-formedness test, FIRST,
    the states.  [gen_run] and [gen_run_auto] are both [gen_front i u f rows], each for its own three early results
    and its own continuation [rows] ([gen_run_front], [gen_run_auto_front]); the two model functions stay spelled
    out as they are in Gen.v and GenAuto.v. *)
Section Front.
Variable g : grammar.
Variables nn ntm : nat.
Variable symbols : list sym.
Variable la_order : list nat.
Variable terr : nat.
Variable fuel : nat.

Definition gen_front {R} (ill unstable nofuel : R) (rows : annot -> transitions -> R) : R :=
  if negb (gen_wf g nn ntm symbols la_order terr) then ill else
  match gen_first g nn with
  | None => unstable
  | Some (N, F) =>
    match gen_states_an g symbols la_order {| a_items := []; a_nullable := N; a_first := F |} fuel with
    | None => nofuel
    | Some (sts, trs) => rows {| a_items := sts; a_nullable := N; a_first := F |} trs
    end
  end.

Lemma gen_front_inv {R} (ill unstable nofuel : R) rows r :
  gen_front ill unstable nofuel rows = r -> r <> ill -> r <> unstable -> r <> nofuel ->
  exists an tr, gen_wf g nn ntm symbols la_order terr = true /\ auto_valid g ntm an tr = true /\ r = rows an tr /\
    forall R' (i u f : R') k, gen_front i u f k = k an tr.
Proof.
  unfold gen_front. intros <- H1 H2 H3.
  destruct (gen_wf g nn ntm symbols la_order terr) eqn:WF; [|now elim H1].
  destruct (gen_first g nn) as [[N F]|] eqn:GF; [|now elim H2].
  destruct (gen_states_an g symbols la_order _ fuel) as [[sts trs]|] eqn:GS; [|now elim H3].
  exists {| a_items := sts; a_nullable := N; a_first := F |}, trs.
  split; [reflexivity|]. split; [exact (gen_auto_valid_an g nn ntm symbols la_order terr N F sts trs fuel WF GF GS)|].
  split; reflexivity.
Qed.

Lemma gen_run_front p_acts :
  gen_run g nn ntm symbols la_order p_acts terr fuel =
  gen_front GenIllFormed GenFirstUnstable GenFuel (fun an tr =>
    match all_some (map (gen_row g nn ntm terr an tr) (seq 0 (nst an))) with
    | None => GenConflict an tr (conflict_cells g ntm an tr)
    | Some rows => GenOk (gtb g p_acts terr rows) an tr
    end).
Proof. reflexivity. Qed.

Theorem gen_conflict_canonical p_acts an tr cells :
  gen_run g nn ntm symbols la_order p_acts terr fuel = GenConflict an tr cells -> canonical_conflict g.
Proof.
  rewrite gen_run_front. intros H.
  destruct (gen_front_inv _ _ _ _ _ H) as (an' & tr' & _ & AV & E & _); try discriminate.
  destruct (all_some _) eqn:ER; [discriminate|]. injection E as <- <- _.
  apply all_some_map_seq_None in ER. destruct ER as (s & Hs & Hr).
  unfold gen_row in Hr. destruct (action_row g ntm an tr s) eqn:EA; [discriminate|].
  apply all_some_map_seq_None in EA. destruct EA as (a & Ha & Hc).
  apply (dump_conflict_canonical g ntm an tr AV). exists s, a. split; [exact Hs|]. split; [exact Ha|].
  unfold action_cell in Hc. destruct (cell g an tr s a) as [[w [|c cf]]|] eqn:EC; try discriminate.
  - apply (row_action_conflicts_nonempty _ _ _ EC). discriminate.
  - assert (HP : cell_panics g an tr s a = true) by (unfold cell_panics; now rewrite EC).
    apply cell_panics_P in HP. destruct HP as (H1 & x & Hx & H2).
    exists Accept, x. auto.
Qed.

End Front.

Section GenOk.
Variable g : grammar.
Variables nn ntm : nat.
Variable symbols : list sym.
Variable la_order : list nat.
Variable p_acts : list bool.
Variable terr : nat.
Variable fuel : nat.
Variable tb : tables.
Variable an : annot.
Variable tr : transitions.
Hypothesis GEN : gen_all g nn ntm symbols la_order p_acts terr fuel = Some (tb, an, tr).

Lemma gen_all_inv : exists rows,
  gen_wf g nn ntm symbols la_order terr = true /\ auto_valid g ntm an tr = true /\
  all_some (map (gen_row g nn ntm terr an tr) (seq 0 (nst an))) = Some rows /\
  tb = gtb g p_acts terr rows.
Proof.
  pose proof GEN as H. unfold gen_all in H.
  destruct (gen_run g nn ntm symbols la_order p_acts terr fuel) as [tb' an' tr'| | | |] eqn:E; try discriminate.
  injection H as -> -> ->. rewrite gen_run_front in E.
  destruct (gen_front_inv _ _ _ _ _ _ _ _ _ _ _ _ E) as (an' & tr' & WF & AV & E' & _); try discriminate.
  destruct (all_some _) as [rows|] eqn:ER; [|discriminate]. injection E' as -> -> ->. eauto.
Qed.

Theorem gen_auto_valid : auto_valid g ntm an tr = true.
Proof. destruct gen_all_inv as (rows & _ & H & _). exact H. Qed.

Theorem gen_canonical :
  (forall gamma s, path tr gamma = Some s -> s < nst an /\ forall it, In it (items_of an s) <-> CI g gamma it) /\
  (forall s, s < nst an -> exists gamma, path tr gamma = Some s) /\
  (forall gamma, canonical_state g gamma -> exists s, path tr gamma = Some s).
Proof. exact (auto_canonical g ntm an tr gen_auto_valid). Qed.

Theorem gen_no_conflict : ~ canonical_conflict g.
Proof.
  destruct gen_all_inv as (rows & H1 & _ & H5 & _).
  intros HC. apply (dump_conflict_canonical g ntm an tr gen_auto_valid) in HC.
  destruct HC as (s & a & Hs & Ha & x & y & Hxy & Hx & Hy).
  destruct (cell_total g nn ntm terr an tr rows H5 s a Hs Ha) as [w Hc].
  exact (Hxy (row_action_free_unique _ _ _ _ Hc Hx Hy)).
Qed.

Theorem gen_valid_backward : valid_backward g tb an = true.
Proof.
  destruct gen_all_inv as (rows & H1 & AV & H5 & ->).
  eapply tables_valid_backward; eassumption.
Qed.

Theorem gen_valid_forward : valid_forward g tb an = true.
Proof.
  destruct gen_all_inv as (rows & H1 & AV & H5 & ->).
  eapply tables_valid_forward; eassumption.
Qed.

Theorem gen_no_error_shift : no_err_in_bodies g terr = true -> no_error_shift tb = true.
Proof.
  intros NE. destruct gen_all_inv as (rows & H1 & AV & H5 & ->).
  apply (tables_no_error_shift g nn ntm symbols la_order p_acts terr an tr rows H1 AV H5).
  now apply no_err_in_bodies_P.
Qed.

Lemma no_err_terr0 : terr = 0 -> no_err_in_bodies g terr = true.
Proof.
  intros E0. unfold no_err_in_bodies. apply forallb_forall. intros pr Hpr. apply forallb_forall.
  intros [a|n] HX; [|reflexivity]. simpl. apply negb_true_iff. apply Nat.eqb_neq.
  destruct gen_all_inv as (rows & WF & _). destruct (wf_T WF _ _ Hpr HX). lia.
Qed.

Theorem gen_lr_valid : no_err_in_bodies g terr = true -> lr_valid g tb an = true.
Proof.
  intros NE. unfold lr_valid. now rewrite gen_valid_backward, gen_valid_forward, gen_no_error_shift.
Qed.

Theorem gen_x_checks_reach : x_prod g tb an = true -> x_checks g tb an = true.
Proof.
  intros XP. destruct gen_all_inv as (rows & H1 & AV & H5 & ->).
  eapply tables_x_checks_reach; eassumption.
Qed.

Theorem gen_x_checks : all_productive g nn = true -> x_checks g tb an = true.
Proof.
  intros PR. destruct gen_all_inv as (rows & H1 & AV & H5 & ->).
  eapply tables_x_checks; eassumption.
Qed.

Lemma gen_nterms : Validate.nterms tb = ntm.
Proof.
  destruct gen_all_inv as (rows & H1 & AV & H5 & ->).
  exact (nterms_eq g nn ntm p_acts terr an tr rows AV H5).
Qed.

Lemma gen_t_err : t_err tb = terr /\ t_gate tb = false.
Proof. destruct gen_all_inv as (rows & _ & _ & _ & ->). split; reflexivity. Qed.

(** ** C02 for the generated parsers of grammars with the error terminal in no body, without any per-grammar evaluation *)

(** accepted => sentence, never a panic (for every fuel and every semantic action function) *)
Corollary gen_parse_sound sem input fuel' :
  no_err_in_bodies g terr = true ->
  Forall (fun t => ttype t <> EOFT) input -> Forall (fun t => ttype t < ntm) input ->
  Sound.good_result g tb sem input (parse tb sem input fuel').
Proof.
  intros NE HI HR. apply (Sound.parse_sound_valid g tb an); auto.
  - exact gen_valid_backward.
  - now apply gen_no_error_shift.
  - now rewrite gen_nterms.
Qed.

Corollary gen_accept_implies_sentence sem input fuel' v :
  no_err_in_bodies g terr = true ->
  Forall (fun t => ttype t <> EOFT) input -> Forall (fun t => ttype t < ntm) input ->
  r_out (parse tb sem input fuel') = POk v ->
  exists pr0 X0 t, nth_error g 0 = Some pr0 /\ rhs pr0 = [X0] /\ Trees.wt g X0 t input.
Proof.
  intros NE HI HR Hok. pose proof (gen_parse_sound sem input fuel' NE HI HR) as H.
  unfold Sound.good_result in H. rewrite Hok in H. destruct H as (t & pr0 & X0 & c & H0 & H1 & H2 & _).
  exists pr0, X0, t. auto.
Qed.

Corollary gen_no_panic sem input fuel' c :
  no_err_in_bodies g terr = true ->
  Forall (fun t => ttype t <> EOFT) input -> Forall (fun t => ttype t < ntm) input ->
  r_out (parse tb sem input fuel') <> PPanic c.
Proof.
  intros NE HI HR Hp. pose proof (gen_parse_sound sem input fuel' NE HI HR) as H.
  unfold Sound.good_result in H. now rewrite Hp in H.
Qed.

Corollary gen_sentence_implies_accept sem input :
  (forall i p kids, sem i p kids <> None) ->
  forall pr0 X0 t, nth_error g 0 = Some pr0 -> rhs pr0 = [X0] -> Trees.wt g X0 t input ->
  forall fuel', Complete.size t + 1 <= fuel' -> exists v, r_out (parse tb sem input fuel') = POk v.
Proof. intros Hsem. apply (lr_complete g tb an); [exact gen_valid_forward|exact Hsem]. Qed.

Corollary gen_terminates sem :
  no_err_in_bodies g terr = true -> all_productive g nn = true ->
  (forall i p kids, sem i p kids <> None) ->
  forall pr0 X0, nth_error g 0 = Some pr0 -> rhs pr0 = [X0] ->
  forall input, Forall (fun t => ttype t <> EOFT) input ->
  exists fuel0, forall fuel', fuel0 <= fuel' -> r_out (parse tb sem input fuel') <> PFuel.
Proof.
  intros NE PR. apply (ErrorPos.C02_terminates g tb an); [now apply gen_lr_valid|now apply gen_x_checks].
Qed.

End GenOk.

Corollary gen_terminates_reach g nn ntm symbols la_order p_acts terr fuel tb an tr sem :
  gen_all g nn ntm symbols la_order p_acts terr fuel = Some (tb, an, tr) ->
  no_err_in_bodies g terr = true -> x_prod g tb an = true ->
  (forall i p kids, sem i p kids <> None) ->
  forall pr0 X0, nth_error g 0 = Some pr0 -> rhs pr0 = [X0] ->
  forall input, Forall (fun t => ttype t <> EOFT) input ->
  exists fuel0, forall fuel', fuel0 <= fuel' -> r_out (parse tb sem input fuel') <> PFuel.
Proof.
  intros GEN NE XP. apply (ErrorPos.C02_terminates g tb an).
  - eapply gen_lr_valid; eauto.
  - eapply gen_x_checks_reach; eauto.
Qed.

Section ClosureFuel.
Variable g : grammar.
Variable la_order : list nat.
Variable an : annot.

Definition dot0_universe : list item :=
  flat_map (fun q => map (fun b => (q, 0, b)) la_order) (seq 0 (length g)).

Lemma dot0_universe_length : length dot0_universe = length g * length la_order.
Proof.
  unfold dot0_universe. rewrite (flat_map_const_length _ (length la_order)); [now rewrite seq_length|].
  intros q. apply map_length.
Qed.

Lemma new_items_universe it i : In i (new_items g la_order an it) -> In i dot0_universe.
Proof.
  destruct it as [[p k] la]. intros H.
  destruct (new_items_inv _ _ _ _ _ _ _ H) as (pr & B & q & prq & b & -> & _ & _ & Hq & _ & _ & Hb).
  unfold dot0_universe. apply in_flat_map. exists q. split.
  - apply in_seq. split; [lia|]. simpl. apply nth_error_Some. congruence.
  - apply in_map_iff. eauto.
Qed.

Definition finv (K I : list item) : Prop := exists E, I = K ++ E /\ NoDup E /\ incl E dot0_universe.

Lemma finv_length K I : finv K I -> length I <= length K + length g * length la_order.
Proof.
  intros (E & -> & H1 & H2). rewrite app_length, <- dot0_universe_length.
  pose proof (NoDup_incl_length H1 H2). lia.
Qed.

Lemma closure_loop_fuel K : forall fuel I idx, finv K I -> idx <= length I ->
  length K + length g * length la_order < fuel + idx ->
  closure_loop g la_order an fuel I idx <> None.
Proof.
  induction fuel as [|f IH]; intros I idx HF Hidx Hfuel.
  - pose proof (finv_length _ _ HF). lia.
  - simpl. destruct (nth_error I idx) as [it|] eqn:E; [|discriminate].
    assert (Hlt : idx < length I) by (apply nth_error_Some; congruence).
    destruct (add_items_spec (new_items g la_order an it) I) as (extra & E1 & _ & _).
    apply IH.
    + apply add_items_ind; [assumption|].
      intros I' i (E' & -> & N1 & N2) _ Hi Hni. exists (E' ++ [i]). rewrite app_assoc. split; [reflexivity|]. split.
      * apply NoDup_snoc; [assumption|]. intros Hin. apply Hni. apply in_or_app. now right.
      * intros x Hx. apply in_app_or in Hx. destruct Hx as [Hx|[<-|[]]]; [now apply N2|].
        eapply new_items_universe; eauto.
    + rewrite E1, app_length. lia.
    + lia.
Qed.

(** [closure_fuel] is adequate: the items added are distinct members of [dot0_universe] *)
Theorem closure_fuel_ok K : closure g la_order an K <> None.
Proof.
  unfold closure, closure_fuel. apply (closure_loop_fuel K).
  - exists []. rewrite app_nil_r. split; [reflexivity|]. split; [constructor|intros x []].
  - lia.
  - lia.
Qed.

End ClosureFuel.

Fixpoint all_bvecs (m : nat) : list (list bool) :=
  match m with
  | O => [[]]
  | S m' => map (cons true) (all_bvecs m') ++ map (cons false) (all_bvecs m')
  end.

Lemma all_bvecs_length m : length (all_bvecs m) = 2 ^ m.
Proof. induction m as [|m IH]; [reflexivity|]. simpl. rewrite app_length, !map_length, IH. lia. Qed.

Lemma all_bvecs_In : forall v, In v (all_bvecs (length v)).
Proof.
  induction v as [|b v IH]; [now left|]. simpl. apply in_or_app.
  destruct b; [left|right]; now apply in_map.
Qed.

Section StatesFuel.
Variable g : grammar.
Variable symbols : list sym.
Variable la_order : list nat.
Variable an : annot.

(** [EOFT] beside [la_order] (it is absent from [dot0_universe]): the look-ahead of the start item of state 0 is
    [EOFT], and nothing here asks [la_order] to contain it *)
Definition item_universe : list item :=
  flat_map (fun p => flat_map (fun k => map (fun la => (p, k, la)) (EOFT :: la_order))
                              (seq 0 (S (length (rhs (nth p g {| lhs := 0; rhs := [] |}))))))
           (seq 0 (length g)).

Definition inV (it : item) : Prop :=
  let '(p, k, la) := it in
  exists pr, nth_error g p = Some pr /\ k <= length (rhs pr) /\ In la (EOFT :: la_order).

Lemma inV_universe it : inV it -> In it item_universe.
Proof.
  destruct it as [[p k] la]. intros (pr & Hp & Hk & Hla). unfold item_universe.
  apply in_flat_map. exists p. split; [apply in_seq; split; [lia|]; simpl; apply nth_error_Some; congruence|].
  apply in_flat_map. exists k. split.
  - apply in_seq. rewrite (nth_error_nth _ _ _ Hp). lia.
  - apply in_map_iff. eauto.
Qed.

Notation closure := (closure g la_order an).
Notation goto := (goto g la_order an).
Notation process_syms := (process_syms g la_order an).

Lemma closure_inV K J : closure K = Some J -> Forall inV K -> Forall inV J.
Proof.
  unfold Gen.closure. intros H HK. apply (closure_loop_ind g la_order an (Forall inV)) in H; [assumption| |assumption].
  intros I [[p k] la] i HI _ Hi _. apply Forall_app. split; [assumption|]. constructor; [|constructor].
  destruct (new_items_inv _ _ _ _ _ _ _ Hi) as (pr & B & q & prq & b & -> & _ & _ & Hq & _ & _ & Hb).
  exists prq. split; [assumption|]. split; [lia|now right].
Qed.

Lemma goto_inV X I J : goto X I = Some J -> Forall inV I -> Forall inV J.
Proof.
  unfold Gen.goto. intros H HI. apply (closure_inV _ _ H). apply Forall_forall. intros [[p k] la] Hin.
  apply goto_kernel_In in Hin. destruct Hin as (k' & -> & Hin & He).
  rewrite Forall_forall in HI. destruct (HI _ Hin) as (pr & Hp & Hk & Hla).
  apply expects_spec in He. destruct He as (pr' & Hp' & Hk'). rewrite Hp in Hp'. inversion Hp'; subst pr'.
  exists pr. split; [assumption|]. split; [|assumption].
  assert (k' < length (rhs pr)) by (apply nth_error_Some; congruence). lia.
Qed.

Definition uinv (sts : list (list item)) : Prop :=
  Forall (Forall inV) sts /\
  forall i j, i < j -> j < length sts -> set_eqb (nth i sts []) (nth j sts []) = false.

Lemma uinv_snoc sts J : uinv sts -> Forall inV J -> find_index J sts = None -> uinv (sts ++ [J]).
Proof.
  intros [H1 H2] HJ HF. split.
  - apply Forall_app. split; [assumption|]. constructor; [assumption|constructor].
  - intros i j Hij Hj. rewrite app_length in Hj. simpl in Hj.
    destruct (Nat.lt_ge_cases j (length sts)) as [Hjl|Hjl].
    + rewrite !app_nth1 by lia. now apply H2.
    + assert (j = length sts) by lia. subst j. rewrite app_nth1 by lia.
      rewrite app_nth2, Nat.sub_diag by lia. simpl.
      unfold find_index in HF. eapply find_index_from_None; [exact HF|assumption].
Qed.

Lemma process_syms_total I : Forall inV I -> forall syms sts row, uinv sts ->
  exists sts' row', process_syms I syms sts row = Some (sts', row') /\ uinv sts' /\ length sts <= length sts'.
Proof.
  intros HI. induction syms as [|X syms IH]; intros sts row HU; simpl.
  - exists sts, row. auto.
  - destruct (goto X I) as [J|] eqn:EJ.
    2:{ exfalso. revert EJ. apply closure_fuel_ok. }
    pose proof (goto_inV _ _ _ EJ HI) as HJ.
    destruct J as [|i0 J0]; [apply IH; assumption|].
    destruct (find_index (i0 :: J0) sts) as [idx|] eqn:EF; [apply IH; assumption|].
    destruct (IH (sts ++ [i0 :: J0]) (row ++ [(X, length sts)])) as (sts' & row' & H1 & H2 & H3).
    { now apply uinv_snoc. }
    exists sts', row'. split; [assumption|]. split; [assumption|]. rewrite app_length in H3. simpl in H3. lia.
Qed.

(** characteristic vectors over the universe: two states with equal vectors are [set_eqb], hence there are at
    most 2^|universe| states *)
Definition chi (St : list item) : list bool := map (fun v => mem_item v St) item_universe.

Lemma chi_eq A B : Forall inV A -> Forall inV B -> chi A = chi B -> set_eqb A B = true.
Proof.
  intros HA HB E. unfold set_eqb. apply andb_true_iff. rewrite Forall_forall in HA, HB.
  split; apply forallb_forall; intros x Hx.
  - rewrite <- (proj1 map_ext_in_iff E x (inV_universe _ (HA _ Hx))). now apply mem_item_In.
  - rewrite (proj1 map_ext_in_iff E x (inV_universe _ (HB _ Hx))). now apply mem_item_In.
Qed.

Lemma uinv_bound sts : uinv sts -> length sts <= 2 ^ length item_universe.
Proof.
  intros [H1 H2]. rewrite <- all_bvecs_length, <- (map_length chi sts).
  apply NoDup_incl_length.
  - apply (proj2 (NoDup_nth (map chi sts) (chi []))). intros i j Hi Hj E.
    rewrite map_length in Hi, Hj. rewrite !map_nth in E.
    rewrite Forall_forall in H1.
    assert (Hi' : Forall inV (nth i sts [])) by (apply H1; now apply nth_In).
    assert (Hj' : Forall inV (nth j sts [])) by (apply H1; now apply nth_In).
    destruct (Nat.lt_trichotomy i j) as [Hlt|[Heq|Hgt]]; [|assumption|]; exfalso.
    + pose proof (chi_eq _ _ Hi' Hj' E) as Hs. rewrite (H2 i j Hlt Hj) in Hs. discriminate.
    + pose proof (chi_eq _ _ Hj' Hi' (eq_sym E)) as Hs. rewrite (H2 j i Hgt Hi) in Hs. discriminate.
  - intros v Hv. apply in_map_iff in Hv. destruct Hv as (St & <- & _).
    replace (length item_universe) with (length (chi St)) by (unfold chi; apply map_length).
    apply all_bvecs_In.
Qed.

Lemma states_loop_total : forall fuel sts trs, uinv sts -> length trs <= length sts ->
  2 ^ length item_universe < fuel + length trs ->
  states_loop g symbols la_order an fuel sts trs <> None.
Proof.
  induction fuel as [|f IH]; intros sts trs HU Hl Hf.
  - pose proof (uinv_bound _ HU). lia.
  - simpl. destruct (nth_error sts (length trs)) as [I1|] eqn:E; [|discriminate].
    assert (HI : Forall inV I1).
    { destruct HU as [H1 _]. rewrite Forall_forall in H1. apply H1. eapply nth_error_In; eauto. }
    destruct (process_syms_total I1 HI symbols sts [] HU) as (sts' & row & -> & HU' & Hlen).
    assert (length trs < length sts) by (apply nth_error_Some; congruence).
    apply IH; [assumption|rewrite app_length; simpl; lia|rewrite app_length; simpl; lia].
Qed.

(** the states are distinct subsets of [item_universe]: 2^(its length) rounds suffice.  A crude bound on the
    number of distinct item sets, good for totality and never meant to be evaluated *)
Theorem gen_states_fuel_ok fuel : g <> [] -> 2 ^ length item_universe < fuel ->
  gen_states_an g symbols la_order an fuel <> None.
Proof.
  intros GNE Hf. unfold gen_states_an. destruct (closure [(0, 0, EOFT)]) as [I0|] eqn:E.
  2:{ exfalso. revert E. apply closure_fuel_ok. }
  apply states_loop_total; [|simpl; lia|simpl; lia]. split.
  - constructor; [|constructor]. apply (closure_inV _ _ E). constructor; [|constructor].
    destruct (nth_error g 0) as [pr0|] eqn:E0.
    + exists pr0. split; [assumption|]. split; [lia|now left].
    + exfalso. apply nth_error_None in E0. apply GNE. apply length_zero_iff_nil. lia.
  - intros i j Hij Hj. simpl in Hj. lia.
Qed.
End StatesFuel.

Section Total.
Variable g : grammar.
Variables nn ntm : nat.
Variable symbols : list sym.
Variable la_order : list nat.
Variable p_acts : list bool.
Variable terr : nat.
Variable fuel : nat.
Hypothesis WF : gen_wf g nn ntm symbols la_order terr = true.
Hypothesis FUEL : 2 ^ length (item_universe g la_order) < fuel.

Notation run := (gen_run g nn ntm symbols la_order p_acts terr fuel).

Lemma gen_front_total : exists an tr, auto_valid g ntm an tr = true /\
  forall R (i u f : R) k, gen_front g nn ntm symbols la_order terr fuel i u f k = k an tr.
Proof.
  pose proof (wf_ne WF) as GNE.
  destruct (gen_first g nn) as [[N F]|] eqn:EF; [|exfalso; revert EF; now apply gen_first_ok].
  destruct (gen_states_an g symbols la_order {| a_items := []; a_nullable := N; a_first := F |} fuel)
    as [[sts trs]|] eqn:ES; [|exfalso; revert ES; now apply gen_states_fuel_ok].
  exists {| a_items := sts; a_nullable := N; a_first := F |}, trs.
  split; [exact (gen_auto_valid_an g nn ntm symbols la_order terr N F sts trs fuel WF EF ES)|].
  intros R i u f k. unfold gen_front. now rewrite WF, EF, ES.
Qed.

Theorem gen_run_total :
  (exists tb an tr, run = GenOk tb an tr) \/ (exists an tr cells, run = GenConflict an tr cells).
Proof.
  destruct gen_front_total as (an & tr & _ & E). rewrite gen_run_front, E.
  destruct (all_some _); [left|right]; eauto.
Qed.

Corollary gen_succeeds_iff_lr1 : (exists tb an tr, run = GenOk tb an tr) <-> ~ canonical_conflict g.
Proof.
  split.
  - intros (tb & an & tr & H). apply (gen_no_conflict g nn ntm symbols la_order p_acts terr fuel tb an tr).
    unfold gen_all. now rewrite H.
  - intros NC. destruct gen_run_total as [H|(an & tr & cells & H)]; [assumption|].
    exfalso. apply NC. eapply gen_conflict_canonical; eauto.
Qed.

End Total.

Module GenExamples.

(** S' -> S ; S -> A b ; A -> a A | empty.
    gocc's terminals: 0 INVALID, 1 end of input, 2 "b", 3 "a", 4 "empty" (sorted names: INVALID a b empty ␚) *)
Definition g1 : grammar :=
  [ {| lhs := 0; rhs := [NT 1] |}; {| lhs := 1; rhs := [NT 2; T 2] |};
    {| lhs := 2; rhs := [T 3; NT 2] |}; {| lhs := 2; rhs := [] |} ].
Definition r1 := gen_all g1 3 5 (default_symbols g1) [0; 3; 2; 4; 1] [false; true; true; true] 0 20.

(** exactly gocc's output (verifdump lr): items in gocc's order, states in gocc's numbering *)
Example g1_items : option_map (fun r => a_items (snd (fst r))) r1 =
  Some [ [(0,0,1); (1,0,1); (2,0,2); (3,0,2)]; [(0,1,1)]; [(1,1,1)]; [(2,1,2); (2,0,2); (3,0,2)]; [(1,2,1)]; [(2,2,2)] ].
Proof. vm_compute. reflexivity. Qed.
Example g1_actions : option_map (fun r => map s_actions (t_states (fst (fst r)))) r1 =
  Some [ [None; None; Some (Reduce 3); Some (Shift 3); None]; [None; Some Accept; None; None; None];
         [None; None; Some (Shift 4); None; None]; [None; None; Some (Reduce 3); Some (Shift 3); None];
         [None; Some (Reduce 1); None; None; None]; [None; None; Some (Reduce 2); None; None] ].
Proof. vm_compute. reflexivity. Qed.
Example g1_first : gen_first g1 3 = Some ([false; false; true], [[3; 2]; [3; 2]; [3]]).
Proof. vm_compute. reflexivity. Qed.
Example g1_ok : exists tb an tr, r1 = Some (tb, an, tr).
Proof. generalize g1_items. destruct r1 as [[[tb an] tr]|]; [eauto|discriminate]. Qed.
Example g1_productive : all_productive g1 3 = true.
Proof. vm_compute. reflexivity. Qed.

(** E' -> E ; E -> E + T | T ; T -> T * F | F ; F -> ( E ) | id
    terminals: 0 INVALID, 1 end of input, 2 "+", 3 "*", 4 "(", 5 ")", 6 id  (sorted names: ( ) * + INVALID id ␚) *)
Definition g2 : grammar :=
  [ {| lhs := 0; rhs := [NT 1] |};
    {| lhs := 1; rhs := [NT 1; T 2; NT 2] |}; {| lhs := 1; rhs := [NT 2] |};
    {| lhs := 2; rhs := [NT 2; T 3; NT 3] |}; {| lhs := 2; rhs := [NT 3] |};
    {| lhs := 3; rhs := [T 4; NT 1; T 5] |}; {| lhs := 3; rhs := [T 6] |} ].
Definition r2 := gen_all g2 4 7 (default_symbols g2) [4; 5; 3; 2; 0; 6; 1] [false; true; true; true; true; true; true] 0 30.

(** the run on [g2] is evaluated once; the examples state its parts *)
Lemma option_map_proj {A B C} (f : A -> B) (h : B -> C) o v :
  option_map f o = Some v -> option_map (fun x => h (f x)) o = Some (h v).
Proof. destruct o as [x|]; [intros [= <-]; reflexivity|discriminate]. Qed.

Definition r2_view (r : tables * annot * transitions) :=
  (length (a_items (snd (fst r))),
   (nth 0 (a_items (snd (fst r))) [], nth 0 (snd r) []),
   s_actions (nth 2 (t_states (fst (fst r))) {| s_actions := []; s_recover := false; s_gotos := [] |})).
Definition r2_obs := Eval vm_compute in option_map r2_view r2.
Lemma r2_run : option_map r2_view r2 = r2_obs.
Proof. vm_compute. reflexivity. Qed.

Example g2_states : option_map (fun r => length (a_items (snd (fst r)))) r2 = Some 22.
Proof. exact (option_map_proj _ (fun v => fst (fst v)) _ _ r2_run). Qed.
Example g2_state0 : option_map (fun r => (nth 0 (a_items (snd (fst r))) [], nth 0 (snd r) [])) r2 =
  Some ([(0,0,1); (1,0,1); (2,0,1); (1,0,2); (2,0,2); (3,0,1); (4,0,1); (3,0,2); (4,0,2); (3,0,3); (4,0,3);
         (5,0,1); (6,0,1); (5,0,2); (6,0,2); (5,0,3); (6,0,3)],
        [(NT 1, 1); (NT 2, 2); (NT 3, 3); (T 4, 4); (T 6, 5)]).
Proof. exact (option_map_proj _ (fun v => snd (fst v)) _ _ r2_run). Qed.
Example g2_row2 : option_map (fun r => s_actions (nth 2 (t_states (fst (fst r))) {| s_actions := []; s_recover := false; s_gotos := [] |})) r2 =
  Some [None; Some (Reduce 2); Some (Reduce 2); Some (Shift 7); None; None; None].
Proof. exact (option_map_proj _ snd _ _ r2_run). Qed.

(** the theorems apply without evaluating any validator: e.g. "id + id * id" is accepted *)
Example g2_accepts : forall tb an tr, r2 = Some (tb, an, tr) ->
  forall sem, (forall i p kids, sem i p kids <> None) ->
  forall input t, Trees.wt g2 (NT 1) t input ->
  exists v, r_out (parse tb sem input (Complete.size t + 1)) = POk v.
Proof.
  (* [r2] is unfolded in the goal, not in the hypothesis: the kernel then meets [r2] where it unfolds first,
     and does not evaluate the generator to compare [r2] with [gen_all g2 ...] *)
  unfold r2. intros tb an tr H sem Hsem input t Ht.
  apply (gen_sentence_implies_accept _ _ _ _ _ _ _ _ _ _ _ H sem input Hsem _ (NT 1) t eq_refl eq_refl Ht).
  apply Nat.le_refl.
Qed.

(** an ambiguous grammar: the model reports the conflict (state 4, terminal 2) like gocc does *)
Definition g3 : grammar :=
  [ {| lhs := 0; rhs := [NT 1] |}; {| lhs := 1; rhs := [NT 1; T 2; NT 1] |}; {| lhs := 1; rhs := [T 3] |} ].
Example g3_conflict :
  match gen_run g3 2 4 (default_symbols g3) [0; 1; 2; 3] [] 0 20 with GenConflict _ _ c => c = [(4, 2)] | _ => False end.
Proof. vm_compute. reflexivity. Qed.

End GenExamples.


Section AutoMode.
Variable g : grammar.
Variables nn ntm : nat.
Variable symbols : list sym.
Variable la_order : list nat.
Variable p_acts : list bool.
Variable terr : nat.
Variable fuel : nat.

Notation run_auto := (gen_run_auto g nn ntm symbols la_order p_acts terr fuel).

Lemma gen_run_auto_front :
  run_auto = gen_front g nn ntm symbols la_order terr fuel AutoIllFormed AutoFirstUnstable AutoFuel (fun an tr =>
    match all_some (map (gen_row_auto g nn ntm terr an tr) (seq 0 (length (a_items an)))) with
    | None => AutoRefused an tr
    | Some rows => AutoOk (gtb g p_acts terr rows) an tr (a_conflicts g ntm an tr)
    end).
Proof. reflexivity. Qed.

Lemma gen_auto_ok_inv tb an tr n : run_auto = AutoOk tb an tr n ->
  auto_valid g ntm an tr = true /\
  exists rows, all_some (map (gen_row_auto g nn ntm terr an tr) (seq 0 (length (a_items an)))) = Some rows /\
    tb = (gtb g p_acts terr rows) /\
    n = a_conflicts g ntm an tr.
Proof.
  rewrite gen_run_auto_front. intros H.
  destruct (gen_front_inv _ _ _ _ _ _ _ _ _ _ _ _ H) as (an' & tr' & _ & AV & E & _); try discriminate.
  destruct (all_some _) as [rows|] eqn:ER; [|discriminate]. injection E as -> <- <- ->. eauto.
Qed.

Lemma gen_auto_refused_inv an tr : run_auto = AutoRefused an tr ->
  auto_valid g ntm an tr = true /\
  all_some (map (gen_row_auto g nn ntm terr an tr) (seq 0 (length (a_items an)))) = None.
Proof.
  rewrite gen_run_auto_front. intros H.
  destruct (gen_front_inv _ _ _ _ _ _ _ _ _ _ _ _ H) as (an' & tr' & _ & AV & E & _); try discriminate.
  destruct (all_some _) as [rows|] eqn:ER; [discriminate|]. injection E as <- <-. auto.
Qed.

Theorem gen_auto_automaton_valid an tr :
  (exists tb n, run_auto = AutoOk tb an tr n) \/ run_auto = AutoRefused an tr ->
  auto_valid g ntm an tr = true.
Proof. intros [(tb & n & H)|H]; [apply (gen_auto_ok_inv _ _ _ _ H)|apply (gen_auto_refused_inv _ _ H)]. Qed.

Theorem gen_auto_cells tb an tr n : run_auto = AutoOk tb an tr n ->
  forall s a, s < length (a_items an) -> a < ntm ->
  exists w cf, cell g an tr s a = Some (w, cf) /\ action_at tb s a = Some w.
Proof.
  intros H s a Hs Ha. destruct (gen_auto_ok_inv _ _ _ _ H) as (_ & rows & HR & -> & _).
  destruct (all_some_map_seq _ _ _ HR) as [_ H2]. destruct (H2 s Hs) as (r & Hr & Hn).
  unfold gen_row_auto in Hr. destruct (action_row_auto g ntm an tr s) as [acts|] eqn:EA; [|discriminate].
  inversion Hr; subst r. clear Hr. unfold action_row_auto in EA.
  destruct (all_some_map_seq _ _ _ EA) as [_ H3]. destruct (H3 a Ha) as (w & Hc & Hw).
  unfold action_cell_auto in Hc. destruct (cell g an tr s a) as [[w' cf]|] eqn:EC; [|discriminate].
  inversion Hc; subst w'. exists w, cf. split; [reflexivity|].
  unfold action_at. simpl. rewrite Hn. simpl. exact Hw.
Qed.

Theorem gen_auto_cell_rule tb an tr n : run_auto = AutoOk tb an tr n ->
  forall s a, s < length (a_items an) -> a < ntm ->
  exists w, action_at tb s a = Some w /\
    (forall t, w = Some (Shift t) <-> In (Some (Shift t)) (cands g an tr s a)) /\
    (forall p, w = Some (Reduce p) <->
       (forall t, ~ In (Some (Shift t)) (cands g an tr s a)) /\ In (Some (Reduce p)) (cands g an tr s a) /\
       forall q, In (Some (Reduce q)) (cands g an tr s a) -> p <= q) /\
    (w = Some Accept <-> In (Some Accept) (cands g an tr s a)) /\
    (w = None <-> forall x, ~ In (Some x) (cands g an tr s a)).
Proof.
  intros H s a Hs Ha. destruct (gen_auto_cells _ _ _ _ H s a Hs Ha) as (w & cf & Hc & Hw).
  exists w. split; [exact Hw|]. exact (row_action_winner _ _ _ Hc).
Qed.

Lemma gen_auto_no_panic tb an tr n : run_auto = AutoOk tb an tr n ->
  existsb (fun s => existsb (cell_panics g an tr s) (seq 0 ntm)) (seq 0 (length (a_items an))) = false.
Proof.
  intros H. apply not_true_is_false. intros E. apply existsb_exists in E. destruct E as (s & Hs & E).
  apply existsb_exists in E. destruct E as (a & Ha & E). apply in_seq in Hs. apply in_seq in Ha.
  destruct (gen_auto_cells _ _ _ _ H s a) as (w & cf & Hc & _); [lia|lia|].
  unfold cell_panics in E. rewrite Hc in E. discriminate.
Qed.

Theorem gen_auto_reports tb an tr n : run_auto = AutoOk tb an tr n -> gocc_reports g ntm an tr = Some n.
Proof.
  intros H. unfold gocc_reports, nst. rewrite (gen_auto_no_panic _ _ _ _ H).
  destruct (gen_auto_ok_inv _ _ _ _ H) as (_ & _ & _ & _ & ->). reflexivity.
Qed.

Theorem gen_auto_reports_iff_not_LR1 tb an tr n : run_auto = AutoOk tb an tr n ->
  (0 < n <-> canonical_conflict g).
Proof.
  intros H. apply (C04_reports g ntm an tr).
  - apply gen_auto_automaton_valid. left. exists tb, n. exact H.
  - exact (gen_auto_reports _ _ _ _ H).
Qed.

Theorem gen_auto_refused an tr : run_auto = AutoRefused an tr ->
  gocc_reports g ntm an tr = None /\ canonical_accept_conflict g.
Proof.
  intros H. destruct (gen_auto_refused_inv _ _ H) as [AV ER].
  assert (HR : gocc_reports g ntm an tr = None).
  { apply all_some_map_seq_None in ER. destruct ER as (s & Hs & Hr).
    unfold gen_row_auto in Hr. destruct (action_row_auto g ntm an tr s) as [acts|] eqn:EA; [discriminate|].
    apply all_some_map_seq_None in EA. destruct EA as (a & Ha & Hc). unfold action_cell_auto in Hc.
    destruct (cell g an tr s a) as [[w cf]|] eqn:EC; [discriminate|].
    unfold gocc_reports, nst.
    replace (existsb _ (seq 0 (length (a_items an)))) with true; [reflexivity|]. symmetry.
    apply existsb_exists. exists s. split; [apply in_seq; lia|]. apply existsb_exists. exists a. split; [apply in_seq; lia|].
    unfold cell_panics. now rewrite EC. }
  split; [exact HR|]. exact (proj1 (C04_panics g ntm an tr AV) HR).
Qed.

Theorem gen_auto_conservative tb an tr :
  gen_run g nn ntm symbols la_order p_acts terr fuel = GenOk tb an tr ->
  run_auto = AutoOk tb an tr 0.
Proof.
  intros H. rewrite gen_run_front in H. rewrite gen_run_auto_front.
  destruct (gen_front_inv _ _ _ _ _ _ _ _ _ _ _ _ H) as (an0 & trs & _ & _ & E & ->); try discriminate. clear H.
  destruct (all_some _) as [rows|] eqn:ER; [|discriminate]. injection E as -> -> ->.
  (* every plain row is an auto row, and no state has a conflict *)
  pose proof (cell_total g nn ntm terr an0 trs rows ER) as HC. unfold nst in ER, HC.
  assert (HE : map (gen_row_auto g nn ntm terr an0 trs) (seq 0 (length (a_items an0))) =
               map (gen_row g nn ntm terr an0 trs) (seq 0 (length (a_items an0)))).
  { apply map_ext_in. intros s Hs. apply in_seq in Hs. unfold gen_row_auto, gen_row.
    replace (action_row_auto g ntm an0 trs s) with (action_row g ntm an0 trs s); [reflexivity|].
    unfold action_row, action_row_auto. f_equal. apply map_ext_in. intros a Ha. apply in_seq in Ha.
    destruct (HC s a) as [w Hw]; [lia|lia|]. unfold action_cell, action_cell_auto. now rewrite Hw. }
  rewrite HE, ER. f_equal. unfold a_conflicts.
  replace (filter (state_conflict g ntm an0 trs) (seq 0 (length (a_items an0)))) with (@nil nat); [reflexivity|].
  symmetry. apply filter_none. intros s Hs. apply in_seq in Hs.
  unfold state_conflict. apply not_true_is_false. intros E.
  apply existsb_exists in E. destruct E as (a & Ha & E). apply in_seq in Ha.
  destruct (HC s a) as [w Hw]; [lia|lia|]. unfold cell_conflict in E. rewrite Hw in E. discriminate.
Qed.

End AutoMode.

Section Exit.
Variable g : grammar.
Variables nn ntm : nat.
Variable symbols : list sym.
Variable la_order : list nat.
Variable p_acts : list bool.
Variable terr : nat.
Variable fuel : nat.
Hypothesis WF : gen_wf g nn ntm symbols la_order terr = true.
Hypothesis FUEL : 2 ^ length (item_universe g la_order) < fuel.

Notation run_auto := (gen_run_auto g nn ntm symbols la_order p_acts terr fuel).

Theorem gen_run_auto_total :
  (exists tb an tr n, run_auto = AutoOk tb an tr n) \/ (exists an tr, run_auto = AutoRefused an tr).
Proof.
  destruct (gen_front_total g nn ntm symbols la_order terr fuel WF FUEL) as (an & tr & _ & E).
  rewrite gen_run_auto_front, E. destruct (all_some _); [left|right]; eauto.
Qed.

Theorem gocc_exit_zero_iff auto :
  gocc_exit g nn ntm symbols la_order p_acts terr auto fuel = Some 0 <->
  (if auto then ~ canonical_accept_conflict g else ~ canonical_conflict g).
Proof.
  unfold gocc_exit. destruct gen_run_auto_total as [(tb & an & tr & n & E)|(an & tr & E)]; rewrite E.
  - pose proof (gen_auto_reports _ _ _ _ _ _ _ _ _ _ _ _ E) as HR.
    assert (AV : auto_valid g ntm an tr = true) by (apply (gen_auto_automaton_valid g nn ntm symbols la_order p_acts terr fuel); left; eauto).
    assert (NA : ~ canonical_accept_conflict g).
    { intro HA. apply (C04_panics g ntm an tr AV) in HA. congruence. }
    pose proof (gen_auto_reports_iff_not_LR1 _ _ _ _ _ _ _ _ _ _ _ _ E) as HC.
    destruct auto.
    + split; [intros _; exact NA|reflexivity].
    + destruct (Nat.eqb_spec n 0) as [->|Hn].
      * split; [intros _ H; apply HC in H; lia|reflexivity].
      * split; [discriminate|]. intros H. exfalso. apply H. apply HC. lia.
  - destruct (gen_auto_refused _ _ _ _ _ _ _ _ _ _ E) as [HR HA].
    assert (AV : auto_valid g ntm an tr = true) by (apply (gen_auto_automaton_valid g nn ntm symbols la_order p_acts terr fuel); right; exact E).
    split; [discriminate|]. intros H. exfalso. destruct auto; [exact (H HA)|].
    apply H. apply (C04_conflict_iff g ntm an tr AV). left. exact HR.
Qed.

End Exit.

Print Assumptions gen_auto_valid.
Print Assumptions gen_canonical.
Print Assumptions gen_no_conflict.
Print Assumptions gen_valid_backward.
Print Assumptions gen_valid_forward.
Print Assumptions gen_lr_valid.
Print Assumptions gen_x_checks.
Print Assumptions tables_valid_backward.
Print Assumptions tables_valid_forward.
Print Assumptions tables_x_checks.
Print Assumptions gen_accept_implies_sentence.
Print Assumptions gen_sentence_implies_accept.
Print Assumptions gen_no_panic.
Print Assumptions gen_terminates.
Print Assumptions closure_fuel_ok.
Print Assumptions gen_first_ok.
Print Assumptions gen_states_fuel_ok.
Print Assumptions gen_run_total.
Print Assumptions gen_conflict_canonical.
Print Assumptions gen_succeeds_iff_lr1.
Print Assumptions tables_x_checks_reach.
Print Assumptions gen_x_checks_reach.
Print Assumptions gen_terminates_reach.
