(** C17 at the level of the parser-object model: n goroutines, each with its OWN parser object (LR/ObjParse.v) and its own
    list of inputs, share only the tables.  A schedule is the order in which the goroutines complete Parse calls.  For
    EVERY schedule each goroutine has obtained exactly the results fresh parsers give on its own inputs, in order.
    (Granularity: a whole Parse call is one step; that a step of one object does not touch another object or the tables
    is the frame assumption checked on the emitted code, the memory-model part is the race detector's.) *)
From Coq Require Import List Arith.
From Gocc Require Import LR.Parse LR.ObjParse LR.ObjParseProofs Front.Interleave.
Import ListNotations.

Definition semf := nat -> nat -> list attr -> option attr.
Record worker := { w_obj : pobj; w_todo : list (semf * list token); w_done : list result }.
Record shared := { sh_gs : nat -> list nat; sh_ga : nat -> list attr; sh_tb : tables; sh_fuel : nat }.

Definition w_step (sh : shared) (w : worker) : worker :=
  match w_todo w with
  | [] => w
  | (sem, input) :: rest =>
    let '(res, o') := k_parse (sh_gs sh) (sh_ga sh) (sh_tb sh) sem input (sh_fuel sh) (w_obj w) in
    {| w_obj := o'; w_todo := rest; w_done := w_done w ++ [res] |}
  end.

Lemma iter_w_step sh : forall n w,
  w_done (Nat.iter n (w_step sh) w) =
  w_done w ++ map (fun c => parse (sh_tb sh) (fst c) (snd c) (sh_fuel sh)) (firstn n (w_todo w)).
Proof.
  induction n as [|n IH]; intros w.
  - simpl. now rewrite app_nil_r.
  - rewrite iter_shift, IH. unfold w_step at 1 2.
    destruct (w_todo w) as [|[sem input] rest] eqn:E.
    + rewrite E. simpl. now rewrite firstn_nil.
    + destruct (k_parse_is_parse (sh_gs sh) (sh_ga sh) (sh_tb sh) sem input (sh_fuel sh) (w_obj w)) as [R _].
      destruct (k_parse (sh_gs sh) (sh_ga sh) (sh_tb sh) sem input (sh_fuel sh) (w_obj w)) as [res o'].
      simpl in R. subst res. cbn [w_done w_todo firstn map fst snd]. now rewrite <- app_assoc.
Qed.

Theorem parsers_every_schedule : forall sh sch (ws : list worker) i w,
  nth_error ws i = Some w ->
  exists w', nth_error (run_sched shared worker w_step sh sch ws) i = Some w' /\
    w_done w' = w_done w ++
      map (fun c => parse (sh_tb sh) (fst c) (snd c) (sh_fuel sh)) (firstn (steps_of i sch) (w_todo w)).
Proof.
  intros sh sch ws i w H. eexists. split.
  - apply interleaving_irrelevant. exact H.
  - apply iter_w_step.
Qed.
Print Assumptions parsers_every_schedule.
