(** Property C07: inertness of error recovery on inputs without syntax errors.

    - [C07_inert]: for tables passing [valid_forward] (conflict-free tables of the FULL grammar,
      error alternatives included; nothing is assumed about recovery flags), on an input that has
      a parse tree the run is: [size t] Shift/Reduce moves, none through the nil-action branch
      (the only place where [error_step] is called), then Accept; result, log and number of
      scans are the post-order evaluation of the tree.
    - [C07_inert_compare]: "exactly as if those alternatives were absent": tables [tb2] of a
      grammar [g2] whose productions are embedded in [g1] by a renumbering [rho] (e.g. [g2] =
      [g1] without the alternatives beginning with the error symbol), the same user code
      ([sem2 i p = sem1 i (rho p)]): on every sentence of [g2] both parsers return the same
      value, the same number of scans and the same log of action calls up to [rho].
    - [teval_err_free]: no error attribute appears in the result or in any argument list when
      the user actions create none. *)
From Coq Require Import List Arith ZArith Lia Bool.
From Gocc Require Import LR.Parse LR.Validate LR.Trees LR.Complete LR.Steps LR.CompleteSteps.
Import ListNotations.

Theorem C07_inert :
  forall g tb an sem input,
    valid_forward g tb an = true -> start_fresh g = true ->
    (forall i p kids, sem i p kids <> None) ->
    forall pr0 X0 t, nth_error g 0 = Some pr0 -> rhs pr0 = [X0] -> wt g X0 t input ->
    (* the result is the post-order evaluation of the tree *)
    (forall fuel, size t + 1 <= fuel ->
       parse tb sem input fuel =
         let '(v, _, lg) := teval tb sem t 0 [] in
         {| r_out := POk v; r_log := rev lg; r_scans := S (length input) |}) /\
    (* in particular never an error, whatever the fuel *)
    (forall fuel e, r_out (parse tb sem input fuel) <> PErr e) /\
    (* and recovery is not even entered: every configuration of the run before the accepting
       one has a Shift or Reduce action for its look-ahead *)
    (exists cN, steps tb sem input (size t) cfg0 = Some cN /\ accepting tb input cN /\
       forall m c1, m < size t -> steps tb sem input m cfg0 = Some c1 ->
         exists s act, top (c_st c1) = Some s /\
           action_at tb s (ttype (tok_at input (c_i c1))) = Some (Some act) /\ act <> Accept).
Proof.
  intros g tb an sem input V Hf Hs pr0 X0 t H0 Hr Hwt.
  pose proof (lr_complete_exact g tb an sem input V Hf Hs pr0 X0 t H0 Hr Hwt) as Hex.
  destruct (lr_complete_steps g tb an sem input V Hf Hs pr0 X0 t H0 Hr Hwt) as (s' & Hst).
  split; [exact Hex|]. destruct (teval tb sem t 0 []) as [[v c'] lg']. destruct Hst as [Hst Hacc].
  split; [|eexists; split; [exact Hst|split; [exact Hacc|]]; intros m c1; exact (steps_no_error tb sem input _ _ _ Hst m c1)].
  intros fuel e He.
  (* run with fuel: follows the same path; it either runs out of fuel or accepts *)
  destruct (Nat.le_gt_cases (size t + 1) fuel) as [Hle|Hgt].
  - rewrite (Hex fuel Hle) in He. discriminate.
  - rewrite parse_crunc in He.
    assert (Hpre : exists c1, steps tb sem input fuel cfg0 = Some c1).
    { replace (size t) with (fuel + (size t - fuel)) in Hst by lia.
      destruct (steps_prefix tb sem input _ _ _ _ Hst) as (c1 & H1 & _). eauto. }
    destruct Hpre as [c1 H1]. rewrite (crunc_out_of_fuel tb sem input fuel cfg0 c1 H1) in He. discriminate.
Qed.

Fixpoint err_free (a : attr) : bool :=
  match a with
  | ATok _ => true
  | ANode _ kids => forallb err_free kids
  | ANil => true
  | AErr _ _ _ => false
  end.

Definition sem_err_free (sem : nat -> nat -> list attr -> option attr) : Prop :=
  forall i p kids a, forallb err_free kids = true -> sem i p kids = Some a -> err_free a = true.

Lemma sem_node_err_free fail : sem_err_free (sem_node fail).
Proof.
  intros i p kids a Hk H. unfold sem_node in H.
  assert (Ha : a = ANode p kids).
  { destruct fail as [k|]; [destruct (Nat.eqb i k); [discriminate|]|]; now inversion H. }
  subst a. exact Hk.
Qed.

Definition log_err_free (lg : alog) : Prop := Forall (fun e => forallb err_free (snd e) = true) lg.

Section ErrFree.
Variable tb : tables.
Variable sem : nat -> nat -> list attr -> option attr.
Hypothesis SEF : sem_err_free sem.

Lemma red_result_err_free p vs c lg v c' lg' :
  forallb err_free vs = true -> log_err_free lg ->
  red_result tb sem p vs c lg = (v, c', lg') -> err_free v = true /\ log_err_free lg'.
Proof.
  intros Hvs Hlg. unfold red_result.
  destruct (nth_error (t_prods tb) p) as [pw|]; [|intros [= <- _ <-]; auto].
  destruct (p_act pw); intros [= <- _ <-].
  - split; [|constructor; auto]. destruct (sem c p vs) as [a|] eqn:E; [eapply SEF; eauto|reflexivity].
  - split; [|exact Hlg]. destruct vs as [|k r]; [reflexivity|]. exact (proj1 (andb_prop _ _ Hvs)).
Qed.

Lemma teval_err_free_both :
  forall t,
  (forall c lg v c' lg', log_err_free lg -> teval tb sem t c lg = (v, c', lg') ->
     err_free v = true /\ log_err_free lg').
Proof.
  fix IH 1. intros [tk|p kids] c lg v c' lg' Hlg H.
  - simpl in H. injection H as <- _ <-. auto.
  - rewrite teval_node in H.
    assert (Hks : forall ks c lg vs c' lg', log_err_free lg -> tevals tb sem ks c lg = (vs, c', lg') ->
              forallb err_free vs = true /\ log_err_free lg').
    { clear - IH. induction ks as [|k ks IHks]; intros c lg vs c' lg' Hlg H.
      - simpl in H. injection H as <- _ <-. auto.
      - rewrite tevals_cons in H.
        destruct (teval tb sem k c lg) as [[v1 c1] lg1] eqn:E1.
        destruct (tevals tb sem ks c1 lg1) as [[vs2 c2] lg2] eqn:E2.
        injection H as <- _ <-.
        destruct (IH k _ _ _ _ _ Hlg E1) as [Hv1 Hl1].
        destruct (IHks _ _ _ _ _ Hl1 E2) as [Hv2 Hl2].
        split; [simpl; now rewrite Hv1, Hv2|exact Hl2]. }
    destruct (tevals tb sem kids c lg) as [[vs c1] lg1] eqn:Ev.
    destruct (Hks _ _ _ _ _ _ Hlg Ev) as [Hvs Hl1].
    eapply red_result_err_free; eauto.
Qed.

Theorem teval_err_free t v c' lg' :
  teval tb sem t 0 [] = (v, c', lg') -> err_free v = true /\ log_err_free lg'.
Proof. apply teval_err_free_both. constructor. Qed.

End ErrFree.

Fixpoint rename (rho : nat -> nat) (t : tree) : tree :=
  match t with
  | Leaf tk => Leaf tk
  | Node p kids => Node (rho p) (map (rename rho) kids)
  end.

Definition ren (rho : nat -> nat) (e : nat * list attr) : nat * list attr := (rho (fst e), snd e).

Section Compare.
Variables (g1 g2 : grammar) (tb1 tb2 : tables).
Variable sem1 : nat -> nat -> list attr -> option attr.
Variable rho : nat -> nat.

(** every production of [g2] is production [rho p] of [g1] ... *)
Hypothesis EMB : forall p pr, nth_error g2 p = Some pr -> nth_error g1 (rho p) = Some pr.
(** ... with the same kind of action (explicit or default) *)
Hypothesis ACT : forall p pr, nth_error g2 p = Some pr ->
  exists pw1 pw2, nth_error (t_prods tb1) (rho p) = Some pw1 /\ nth_error (t_prods tb2) p = Some pw2 /\
                  p_act pw1 = p_act pw2.

Definition sem2 : nat -> nat -> list attr -> option attr := fun i p kids => sem1 i (rho p) kids.

Lemma rename_wt :
  (forall X t w, wt g2 X t w -> wt g1 X (rename rho t) w) /\
  (forall gamma ts w, wts g2 gamma ts w -> wts g1 gamma (map (rename rho) ts) w).
Proof.
  apply wt_wts_min.
  - intros t. simpl. constructor.
  - intros p pr kids w Hp _ IH. cbn [rename]. econstructor; [apply EMB; exact Hp|exact IH].
  - constructor.
  - intros X ss t ts w1 w2 _ IH1 _ IH2. cbn [map]. constructor; assumption.
Qed.

Lemma rename_size : forall t, size (rename rho t) = size t.
Proof.
  fix IH 1. intros [tk|p kids]; [reflexivity|]. cbn [rename size]. f_equal.
  induction kids as [|k ks IHks]; [reflexivity|]. cbn [map]. now rewrite IH, IHks.
Qed.

Lemma rename_teval :
  (forall X t w, wt g2 X t w -> forall c lg,
     teval tb1 sem1 (rename rho t) c (map (ren rho) lg) =
     let '(v, c', lg') := teval tb2 sem2 t c lg in (v, c', map (ren rho) lg')) /\
  (forall gamma ts w, wts g2 gamma ts w -> forall c lg,
     tevals tb1 sem1 (map (rename rho) ts) c (map (ren rho) lg) =
     let '(vs, c', lg') := tevals tb2 sem2 ts c lg in (vs, c', map (ren rho) lg')).
Proof.
  apply wt_wts_min.
  - intros t c lg. reflexivity.
  - intros p pr kids w Hp _ IH c lg. cbn [rename]. rewrite !teval_node, IH.
    destruct (tevals tb2 sem2 kids c lg) as [[vs c1] lg1].
    destruct (ACT _ _ Hp) as (pw1 & pw2 & H1 & H2 & Ha).
    unfold red_result. rewrite H1, H2, Ha. destruct (p_act pw2); reflexivity.
  - intros c lg. reflexivity.
  - intros X ss t ts w1 w2 _ IH1 _ IH2 c lg. cbn [map]. rewrite !tevals_cons, IH1.
    destruct (teval tb2 sem2 t c lg) as [[v c1] lg1]. rewrite IH2.
    destruct (tevals tb2 sem2 ts c1 lg1) as [[vs c2] lg2]. reflexivity.
Qed.

End Compare.

Theorem C07_inert_compare :
  forall g1 tb1 an1 g2 tb2 an2 sem1 rho input,
    valid_forward g1 tb1 an1 = true -> start_fresh g1 = true ->
    valid_forward g2 tb2 an2 = true -> start_fresh g2 = true ->
    (forall i p kids, sem1 i p kids <> None) ->
    (forall p pr, nth_error g2 p = Some pr -> nth_error g1 (rho p) = Some pr) ->
    (forall p pr, nth_error g2 p = Some pr ->
       exists pw1 pw2, nth_error (t_prods tb1) (rho p) = Some pw1 /\
                       nth_error (t_prods tb2) p = Some pw2 /\ p_act pw1 = p_act pw2) ->
    rho 0 = 0 ->
    forall pr0 X0 t, nth_error g2 0 = Some pr0 -> rhs pr0 = [X0] -> wt g2 X0 t input ->
    forall fuel, size t + 1 <= fuel ->
      let r1 := parse tb1 sem1 input fuel in
      let r2 := parse tb2 (sem2 sem1 rho) input fuel in
      r_out r1 = r_out r2 /\ (exists v, r_out r1 = POk v) /\
      r_log r1 = map (ren rho) (r_log r2) /\ r_scans r1 = r_scans r2.
Proof.
  intros g1 tb1 an1 g2 tb2 an2 sem1 rho input V1 F1 V2 F2 Hs EMB ACT R0 pr0 X0 t H0 Hr Hwt fuel Hfuel.
  assert (Hs2 : forall i p kids, sem2 sem1 rho i p kids <> None) by (intros i p kids; apply Hs).
  pose proof (lr_complete_exact g2 tb2 an2 _ input V2 F2 Hs2 pr0 X0 t H0 Hr Hwt fuel Hfuel) as E2.
  pose proof (proj1 (rename_wt g1 g2 rho EMB) _ _ _ Hwt) as Hwt1.
  assert (H01 : nth_error g1 0 = Some pr0) by (rewrite <- R0; apply EMB; exact H0).
  assert (Hfuel1 : size (rename rho t) + 1 <= fuel) by (now rewrite rename_size).
  pose proof (lr_complete_exact g1 tb1 an1 sem1 input V1 F1 Hs pr0 X0 _ H01 Hr Hwt1 fuel Hfuel1) as E1.
  pose proof (proj1 (rename_teval g2 tb1 tb2 sem1 rho ACT) _ _ _ Hwt 0 []) as Ht.
  cbn [map] in Ht. rewrite Ht in E1.
  destruct (teval tb2 (sem2 sem1 rho) t 0 []) as [[v c'] lg'].
  cbv zeta. rewrite E1, E2. cbn [r_out r_log r_scans].
  split; [reflexivity|]. split; [eauto|]. split; [symmetry; apply map_rev|reflexivity].
Qed.

Print Assumptions C07_inert.
Print Assumptions teval_err_free.
Print Assumptions C07_inert_compare.
