(** Property C07: non-vacuity examples, and a non-canonical table on which the recovery loop
    of the generated parser runs for ever.

    Terminals: 0 INVALID, 1 end of input, 2 [a], 3 [;], 4 [error].
    Nonterminals: 0 S', 1 L, 2 St.
      0: S' -> L       1: L -> St      2: L -> L St      3: St -> a ;      4: St -> error ;      *)
From Coq Require Import List Arith ZArith Lia Bool.
From Gocc Require Import LR.Parse LR.Validate LR.Complete LR.Derive LR.Exact LR.Recovery LR.RecoveryTerm.
Import ListNotations.

Module RecoveryExample.

Definition rx_g : grammar :=
  [ {| lhs := 0; rhs := [NT 1] |};
    {| lhs := 1; rhs := [NT 2] |};
    {| lhs := 1; rhs := [NT 1; NT 2] |};
    {| lhs := 2; rhs := [T 2; T 3] |};
    {| lhs := 2; rhs := [T 4; T 3] |} ].

Definition red (p : nat) : list (option act) :=
  [None; Some (Reduce p); Some (Reduce p); None; Some (Reduce p)].
Definition nogo : list Z := [(-1)%Z; (-1)%Z; (-1)%Z].

(** canonical LR(1) tables, made by hand (the recovery flag = "shifts the error terminal") *)
Definition rx_tb : tables := {|
  t_states := [
    {| s_actions := [None; None; Some (Shift 3); None; Some (Shift 4)]; s_recover := true;
       s_gotos := [(-1)%Z; 1%Z; 2%Z] |};
    {| s_actions := [None; Some Accept; Some (Shift 3); None; Some (Shift 4)]; s_recover := true;
       s_gotos := [(-1)%Z; (-1)%Z; 5%Z] |};
    {| s_actions := red 1; s_recover := false; s_gotos := nogo |};
    {| s_actions := [None; None; None; Some (Shift 6); None]; s_recover := false; s_gotos := nogo |};
    {| s_actions := [None; None; None; Some (Shift 7); None]; s_recover := false; s_gotos := nogo |};
    {| s_actions := red 2; s_recover := false; s_gotos := nogo |};
    {| s_actions := red 3; s_recover := false; s_gotos := nogo |};
    {| s_actions := red 4; s_recover := false; s_gotos := nogo |} ];
  t_prods := [ {| p_nt := 0; p_len := 1; p_act := false |};
               {| p_nt := 1; p_len := 1; p_act := true |};
               {| p_nt := 1; p_len := 2; p_act := true |};
               {| p_nt := 2; p_len := 2; p_act := true |};
               {| p_nt := 2; p_len := 2; p_act := true |} ];
  t_err := 4; t_gate := false |}.

Definition las (p k : nat) : list item := [(p, k, 1); (p, k, 2); (p, k, 4)].

Definition rx_an : annot := {|
  a_items := [
    [(0,0,1); (1,0,1); (2,0,1); (1,0,2); (1,0,4); (2,0,2); (2,0,4)] ++ las 3 0 ++ las 4 0;
    [(0,1,1)] ++ las 2 1 ++ las 3 0 ++ las 4 0;
    las 1 1; las 3 1; las 4 1; las 2 2; las 3 2; las 4 2 ];
  a_nullable := [false; false; false];
  a_first := [[2; 4]; [2; 4]; [2; 4]] |}.

Example rx_checks :
  valid_backward rx_g rx_tb rx_an && valid_forward rx_g rx_tb rx_an && x_canon rx_g rx_tb rx_an &&
  x_recover' rx_tb && x_recover_conv rx_tb && negb (t_gate rx_tb) && start_fresh rx_g &&
  x_checks rx_g rx_tb rx_an = true.
Proof. vm_compute. reflexivity. Qed.

Definition tk (ty i : nat) : token := {| ttype := ty; tid := i |}.

(** "a ; ; a ;" : the second [;] is the offending token.  The two cells above state 0 are
    discarded into the error attribute, the offending token itself is the first acceptable token
    after [error] (nothing is skipped) and is then shifted; the parse continues and accepts. *)
Example rx_recovers :
  parse rx_tb (sem_node None) (canon [2; 3; 3; 2; 3]) 30 =
  {| r_out := POk (ANode 2 [ANode 1 [ANode 4 [AErr (tk 3 2) [ATok (tk 2 0); ATok (tk 3 1)] [2; 4]; ATok (tk 3 2)]];
                            ANode 3 [ATok (tk 2 3); ATok (tk 3 4)]]);
     r_log := [(4, [AErr (tk 3 2) [ATok (tk 2 0); ATok (tk 3 1)] [2; 4]; ATok (tk 3 2)]);
               (1, [ANode 4 [AErr (tk 3 2) [ATok (tk 2 0); ATok (tk 3 1)] [2; 4]; ATok (tk 3 2)]]);
               (3, [ATok (tk 2 3); ATok (tk 3 4)]);
               (2, [ANode 1 [ANode 4 [AErr (tk 3 2) [ATok (tk 2 0); ATok (tk 3 1)] [2; 4]; ATok (tk 3 2)]];
                    ANode 3 [ATok (tk 2 3); ATok (tk 3 4)]])];
     r_scans := 6 |}.
Proof. vm_compute. reflexivity. Qed.

(** "a a ;" : the second [a] is the offending token; the first [a] is discarded, the offending
    token is skipped (it is not acceptable after [error]), [;] is the new look-ahead *)
Example rx_skips :
  parse rx_tb (sem_node None) (canon [2; 2; 3]) 30 =
  {| r_out := POk (ANode 1 [ANode 4 [AErr (tk 2 1) [ATok (tk 2 0)] [2; 4]; ATok (tk 3 2)]]);
     r_log := [(4, [AErr (tk 2 1) [ATok (tk 2 0)] [2; 4]; ATok (tk 3 2)]);
               (1, [ANode 4 [AErr (tk 2 1) [ATok (tk 2 0)] [2; 4]; ATok (tk 3 2)]])];
     r_scans := 4 |}.
Proof. vm_compute. reflexivity. Qed.

Example rx_error_step :
  error_step rx_tb (canon [2; 2; 3]) 4 [(3, ATok (tk 2 0)); (0, ANil)] (tk 2 1) 2 =
  Recovered [(4, AErr (tk 2 1) [ATok (tk 2 0)] [2; 4]); (0, ANil)] (tk 3 2) 3.
Proof. vm_compute. reflexivity. Qed.

(** "a a" : the input ends before a token acceptable after [error] is found: the error is
    returned, with the offending token (number 1), the state reached by shifting [error] and its
    expected terminals; no action was called *)
Example rx_gives_up :
  parse rx_tb (sem_node None) (canon [2; 2]) 30 =
  {| r_out := PErr {| e_action := None; e_tok := tk 2 1; e_expected := [3]; e_top := 4 |};
     r_log := []; r_scans := 3 |}.
Proof. vm_compute. reflexivity. Qed.

(** three errors in one input: "a a ; ; a": the second [a], the second [;] (both recovered) and
    the end of the input (given up: the state shown is the one reached by shifting [error]) *)
Example rx_twice :
  r_out (parse rx_tb (sem_node None) (canon [2; 2; 3; 3; 2]) 40) =
  PErr {| e_action := None; e_tok := tk 1 5; e_expected := [3]; e_top := 4 |}.
Proof. vm_compute. reflexivity. Qed.

Lemma canon_from_lt n : forall tys i,
  Forall (fun ty => ty < n) tys -> Forall (fun t => ttype t < n) (canon_from i tys).
Proof.
  intros tys i H. revert i. induction H as [|ty r Hty Hr IH]; intros i; cbn [canon_from]; constructor; [exact Hty|apply IH].
Qed.

Corollary rx_total : forall sem tys,
  Forall (fun ty => ty < 5) tys ->
  exists fuel0, forall fuel, fuel0 <= fuel ->
    exists res, r_out (parse rx_tb sem (canon tys) fuel) = res /\
                ((exists v, res = POk v) \/ (exists e, res = PErr e)).
Proof.
  intros sem tys Hty. pose proof rx_checks as H. do 5 (apply andb_prop in H; destruct H as [H _]).
  apply andb_prop in H. destruct H as [H XC]. apply andb_prop in H. destruct H as [VB VF].
  apply (C07_terminates rx_g rx_tb rx_an sem (canon tys) VB VF XC).
  change (nterms rx_tb) with 5. apply canon_from_lt. exact Hty.
Qed.

End RecoveryExample.

(** * Why a validity hypothesis is needed for termination *)
Module LoopExample.
(** Terminals: 0 INVALID, 1 end of input, 2 [x], 3 [error].   0: S' -> A     1: A -> error

    The tables below are NOT canonical: state 1 (after [error]) reduces [A -> error] also on
    look-ahead [x], which can never follow [A].  They still pass [valid_backward] and
    [valid_forward] with an annotation that contains the unjustified item [A -> . error, x] in
    state 0; it is [x_closure] that rejects it.

    On the input "x": state 0 has no action on [x]: error; state 0 shifts [error] to state 1; [x]
    is acceptable there (the bogus Reduce): recovered, nothing skipped; reduce, goto state 2;
    state 2 has no action on [x]: error; pop to state 0, shift [error], [x] is acceptable ... for
    ever, the same look-ahead and the same states, the attributes nesting deeper and deeper. *)
Definition lp_g : grammar := [ {| lhs := 0; rhs := [NT 1] |}; {| lhs := 1; rhs := [T 3] |} ].

Definition lp_tb : tables := {|
  t_states := [
    {| s_actions := [None; None; None; Some (Shift 1)]; s_recover := true; s_gotos := [(-1)%Z; 2%Z] |};
    {| s_actions := [None; Some (Reduce 1); Some (Reduce 1); None]; s_recover := false;
       s_gotos := [(-1)%Z; (-1)%Z] |};
    {| s_actions := [None; Some Accept; None; None]; s_recover := false; s_gotos := [(-1)%Z; (-1)%Z] |} ];
  t_prods := [ {| p_nt := 0; p_len := 1; p_act := false |}; {| p_nt := 1; p_len := 1; p_act := true |} ];
  t_err := 3; t_gate := false |}.

Definition lp_an : annot := {|
  a_items := [ [(0,0,1); (1,0,1); (1,0,2)]; [(1,1,1); (1,1,2)]; [(0,1,1)] ];
  a_nullable := [false; false];
  a_first := [[3]; [3]] |}.

Example lp_checks :
  valid_backward lp_g lp_tb lp_an && valid_forward lp_g lp_tb lp_an &&
  x_recover' lp_tb && x_recover_conv lp_tb && start_fresh lp_g &&
  x_null lp_g lp_an && x_first lp_g lp_tb lp_an && x_prod lp_g lp_tb lp_an = true
  /\ x_closure lp_g lp_tb lp_an = false.
Proof. split; vm_compute; reflexivity. Qed.

Definition tx : token := {| ttype := 2; tid := 0 |}.
Definition is_fuel (r : result) : bool := match r_out r with PFuel => true | _ => false end.

(** out of fuel for every amount of fuel: the configuration (state 2 over state 0, look-ahead
    [x], one scan done) repeats every two moves, with a bigger attribute *)
Lemma lp_cycle sem f a calls log :
  (forall i p kids, sem i p kids <> None) ->
  exists a' log',
    run lp_tb sem [tx] (S (S f)) [(2, a); (0, ANil)] tx 1 calls log =
    run lp_tb sem [tx] f [(2, a'); (0, ANil)] tx 1 (S calls) log'.
Proof.
  intros Hs. cbn [run top lp_tb action_at nth_error t_states s_actions ttype tx].
  change (error_step lp_tb [tx] (S (length [tx])) [(2, a); (0, ANil)] tx 1)
    with (Recovered [(1, AErr tx [a] [3]); (0, ANil)] tx 1).
  cbn [run top lp_tb action_at nth_error t_states s_actions ttype tx t_prods p_len p_act p_nt
       length Nat.ltb Nat.leb firstn skipn map snd rev app goto_at s_gotos Z.ltb Z.compare Z.to_nat Pos.to_nat Pos.iter_op Nat.add].
  destruct (sem calls 1 [AErr tx [a] [3]]) as [v|] eqn:E; [|exfalso; eapply Hs; eauto].
  eexists v, _. reflexivity.
Qed.

Theorem lp_loops_forever : forall fuel,
  r_out (parse lp_tb (sem_node None) [tx] fuel) = PFuel.
Proof.
  assert (Hs : forall i p kids, sem_node None i p kids <> None) by (intros; discriminate).
  assert (H : forall n fuel, fuel <= n -> forall a calls log,
            r_out (run lp_tb (sem_node None) [tx] fuel [(2, a); (0, ANil)] tx 1 calls log) = PFuel).
  { induction n as [|n IH]; intros fuel Hf a calls log.
    - replace fuel with 0 by lia. reflexivity.
    - destruct fuel as [|[|f]]; [reflexivity|reflexivity|].
      destruct (lp_cycle (sem_node None) f a calls log Hs) as (a' & log' & E). rewrite E.
      apply IH. lia. }
  intros fuel. destruct fuel as [|[|f]]; try reflexivity.
  (* two moves lead from the initial configuration to the cycle *)
  change (parse lp_tb (sem_node None) [tx] (S (S f)))
    with (run lp_tb (sem_node None) [tx] f [(2, ANode 1 [AErr tx [] [3]]); (0, ANil)] tx 1 1
              [(1, [AErr tx [] [3]])]).
  apply (H f f (le_n _)).
Qed.

Example lp_loops_200 :
  forallb (fun fuel => is_fuel (parse lp_tb (sem_node None) [tx] fuel)) (seq 0 201) = true.
Proof. apply forallb_forall. intros fuel _. unfold is_fuel. now rewrite lp_loops_forever. Qed.

End LoopExample.

Print Assumptions RecoveryExample.rx_total.
Print Assumptions LoopExample.lp_loops_forever.
