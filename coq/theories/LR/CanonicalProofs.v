(** Property C04, proofs: the automaton dumped by gocc, once it passes [auto_valid], IS the canonical LR(1)
    collection; hence gocc announces conflicts exactly when the canonical collection has one.
    Section Adequacy is not used by these results: it documents that the inductive [first_ss] of the
    specification is FIRST in the sentential-form sense. *)
From Coq Require Import List Arith Bool Lia.
From Gocc Require Import LR.Parse LR.Validate LR.ValidateProofs LR.Complete LR.Derive LR.Exact
                         LR.Resolve LR.ResolveProofs LR.Canonical.
Import ListNotations.

Scheme first_s_min := Minimality for first_s Sort Prop
  with first_ss_min := Minimality for first_ss Sort Prop.
Combined Scheme first_s_ss_min from first_s_min, first_ss_min.

Lemma forallb_In {A} (f : A -> bool) l : forallb f l = true -> forall x, In x l -> f x = true.
Proof. apply forallb_forall. Qed.

Lemma ders_cons_nil g X gamma : der g X [] -> ders g gamma [] -> ders g (X :: gamma) [].
Proof. intros H1 H2. exact (ders_cons g X gamma [] [] H1 H2). Qed.

Section First.
Variable g : grammar.
Variable an : annot.

Notation der := (der g).
Notation ders := (ders g).

Section Closed.
Hypothesis FF : f_first g an = true.

Lemma f_first_rule pr : In pr g ->
  (forallb (nullable_sym an) (rhs pr) = true -> nullable_nt an (lhs pr) = true) /\
  first_closed_rhs an (lhs pr) (rhs pr) = true.
Proof.
  intros Hin. pose proof FF as Hf. unfold f_first in Hf.
  apply (forallb_In _ _ Hf) in Hin. apply andb_prop in Hin.
  destruct Hin as [H1 H2]. split; [|assumption]. intros Hn. now rewrite Hn in H1.
Qed.

Lemma null_closed :
  (forall X u, der X u -> u = [] -> nullable_sym an X = true) /\
  (forall gamma u, ders gamma u -> u = [] -> forallb (nullable_sym an) gamma = true).
Proof.
  apply der_ders_min.
  - discriminate.
  - intros p pr u Hp _ IH Hu. simpl. apply (f_first_rule pr (nth_error_In _ _ Hp)). now apply IH.
  - reflexivity.
  - intros X gamma u v _ IH1 _ IH2 Huv. apply app_eq_nil in Huv. destruct Huv as [-> ->].
    simpl. now rewrite IH1, IH2.
Qed.

Lemma nullable_seq_la : forall beta la, forallb (nullable_sym an) beta = true -> In la (first_seq an beta la).
Proof.
  induction beta as [|X beta IH]; intros la H; simpl in *; [now left|].
  apply andb_true_iff in H. destruct H as [H1 H2]. rewrite H1. apply in_or_app. right. now apply IH.
Qed.

Lemma first_closed :
  (forall X b, first_s g X b -> In b (first_sym an X)) /\
  (forall beta b, first_ss g beta b ->
     (forall n, first_closed_rhs an n beta = true -> In b (first_nt an n)) /\
     (forall la, In b (first_seq an beta la))).
Proof.
  apply first_s_ss_min.
  - intros a. simpl. now left.
  - intros p pr b Hp _ [IH _]. simpl. apply IH. apply (f_first_rule pr (nth_error_In _ _ Hp)).
  - intros X beta b _ IH. split.
    + intros n Hc. simpl in Hc. apply andb_true_iff in Hc. destruct Hc as [Hc _].
      rewrite forallb_forall in Hc. apply mem_nat_In. now apply Hc.
    + intros la. simpl. apply in_or_app. now left.
  - intros X beta b HX _ [IH1 IH2]. pose proof (proj1 null_closed _ _ HX eq_refl) as Hn. split.
    + intros n Hc. simpl in Hc. apply andb_true_iff in Hc. destruct Hc as [_ Hc].
      rewrite Hn in Hc. now apply IH1.
    + intros la. simpl. rewrite Hn. apply in_or_app. right. apply IH2.
Qed.

Lemma FIRST_sem_closed beta la b : FIRST_sem g beta la b -> In b (first_seq an beta la).
Proof.
  intros [H|[H ->]].
  - apply (proj2 first_closed _ _ H).
  - apply nullable_seq_la. apply (proj2 null_closed _ _ H eq_refl).
Qed.

End Closed.

Section Exactness.
Hypothesis NUL : forall n, nullable_nt an n = true -> der (NT n) [].

Lemma first_rhs_s F :
  (forall m a, In a (nth m F []) -> first_s g (NT m) a) ->
  forall gamma a, In a (first_rhs an F gamma) -> first_ss g gamma a.
Proof.
  intros HF. induction gamma as [|X gamma IH]; intros a Hin; simpl in Hin; [destruct Hin|].
  destruct X as [b|m].
  - destruct Hin as [->|[]]. apply fss_here. constructor.
  - apply in_app_or in Hin. destruct Hin as [Hin|Hin].
    + apply fss_here. now apply HF.
    + destruct (nullable_nt an m) eqn:Hn; [|destruct Hin].
      apply fss_skip; [now apply NUL|now apply IH].
Qed.

Lemma cfirst_iter_sound nn : forall k n a, In a (nth n (cfirst_iter g an nn k) []) -> first_s g (NT n) a.
Proof.
  induction k as [|k IH]; intros n a H; simpl in H.
  - destruct n; destruct H.
  - unfold cfirst_step in H. apply nth_map_seq_In in H. apply dedup_In in H.
    apply in_flat_map in H. destruct H as (pr & Hpr & H).
    destruct (Nat.eqb (lhs pr) n) eqn:E; [|destruct H]. apply Nat.eqb_eq in E. subst n.
    destruct (In_nth_error _ _ Hpr) as [p Hp]. econstructor; [exact Hp|].
    eapply first_rhs_s; eauto.
Qed.

Lemma c_first_In n a : c_first g an = true -> In a (first_nt an n) ->
  In a (nth n (cfirst_iter g an (length (a_first an)) (length g)) []).
Proof.
  unfold c_first. intros H Ha. rewrite forallb_forall in H.
  assert (Hlt : n < length (a_first an)).
  { destruct (Nat.lt_ge_cases n (length (a_first an))) as [|Hge]; [assumption|].
    unfold first_nt in Ha. rewrite nth_overflow in Ha by assumption. destruct Ha. }
  specialize (H n). rewrite forallb_forall in H. apply mem_nat_In. apply H; [apply in_seq; lia|exact Ha].
Qed.

Lemma c_first_P : c_first g an = true -> forall n a, In a (first_nt an n) -> first_s g (NT n) a.
Proof. intros H n a Ha. eapply cfirst_iter_sound. exact (c_first_In n a H Ha). Qed.

Lemma first_seq_sem :
  (forall n a, In a (first_nt an n) -> first_s g (NT n) a) ->
  forall beta la b, In b (first_seq an beta la) -> FIRST_sem g beta la b.
Proof.
  intros FX. induction beta as [|X beta IH]; intros la b Hin; simpl in Hin.
  - destruct Hin as [->|[]]. right. split; [constructor|reflexivity].
  - apply in_app_or in Hin. destruct Hin as [Hin|Hin].
    + left. apply fss_here. destruct X as [a|m]; simpl in Hin.
      * destruct Hin as [->|[]]. constructor.
      * now apply FX.
    + destruct (nullable_sym an X) eqn:Hn; [|destruct Hin].
      destruct X as [a|m]; [discriminate|]. simpl in Hn. apply NUL in Hn.
      destruct (IH _ _ Hin) as [H|[H ->]].
      * left. now apply fss_skip.
      * right. split; [|reflexivity]. now apply ders_cons_nil.
Qed.

End Exactness.
End First.

Section Adequacy.
Variable g : grammar.
Notation der := (der g).
Notation ders := (ders g).
Notation sder := (sder g).
Notation sstep := (sstep g).

Lemma sstep_ctx l r a b : sstep a b -> sstep (l ++ a ++ r) (l ++ b ++ r).
Proof.
  intros [alpha p pr rest Hp].
  replace (l ++ (alpha ++ NT (lhs pr) :: rest) ++ r) with ((l ++ alpha) ++ NT (lhs pr) :: (rest ++ r))
    by (rewrite <- !app_assoc; reflexivity).
  replace (l ++ (alpha ++ rhs pr ++ rest) ++ r) with ((l ++ alpha) ++ rhs pr ++ (rest ++ r))
    by (rewrite <- !app_assoc; reflexivity).
  now apply (sstep_intro g _ p).
Qed.

Lemma sder_ctx l r a b : sder a b -> sder (l ++ a ++ r) (l ++ b ++ r).
Proof.
  induction 1 as [a|a b c Hs _ IH]; [constructor|].
  econstructor; [apply sstep_ctx; exact Hs|exact IH].
Qed.

Lemma sder_trans a b c : sder a b -> sder b c -> sder a c.
Proof. induction 1 as [a|a b' c' Hs _ IH]; intros H; [exact H|]. econstructor; eauto. Qed.

Lemma sder_prod p pr : nth_error g p = Some pr -> sder [NT (lhs pr)] (rhs pr).
Proof.
  intros Hp. econstructor; [|constructor].
  pose proof (sstep_intro g [] p pr [] Hp) as H. simpl in H. now rewrite app_nil_r in H.
Qed.

Lemma der_sder :
  (forall X u, der X u -> sder [X] (map T u)) /\
  (forall gamma u, ders gamma u -> sder gamma (map T u)).
Proof.
  apply der_ders_min.
  - intros a. constructor.
  - intros p pr u Hp _ IH. eapply sder_trans; [apply (sder_prod p pr Hp)|exact IH].
  - constructor.
  - intros X gamma u v _ IH1 _ IH2. rewrite map_app.
    eapply sder_trans.
    + exact (sder_ctx [] gamma _ _ IH1).
    + pose proof (sder_ctx (map T u) [] _ _ IH2) as H. now rewrite !app_nil_r in H.
Qed.

Lemma first_ss_to_sder :
  (forall X b, first_s g X b -> exists delta, sder [X] (T b :: delta)) /\
  (forall beta b, first_ss g beta b -> exists delta, sder beta (T b :: delta)).
Proof.
  apply first_s_ss_min.
  - intros a. exists []. constructor.
  - intros p pr b Hp _ [delta IH]. exists delta. eapply sder_trans; [apply (sder_prod p pr Hp)|exact IH].
  - intros X beta b _ [delta IH]. exists (delta ++ beta).
    exact (sder_ctx [] beta _ _ IH).
  - intros X beta b HX _ [delta IH]. exists delta.
    eapply sder_trans; [|exact IH].
    exact (sder_ctx [] beta _ _ (proj1 der_sder _ _ HX)).
Qed.

Lemma first_ss_app_inv : forall a b x, first_ss g (a ++ b) x ->
  first_ss g a x \/ (ders a [] /\ first_ss g b x).
Proof.
  induction a as [|Y a IH]; intros b x H; simpl in H.
  - right. split; [constructor|assumption].
  - inversion H as [? ? ? HY|? ? ? HY Hr]; subst.
    + left. now apply fss_here.
    + destruct (IH _ _ Hr) as [H1|[H1 H2]].
      * left. now apply fss_skip.
      * right. split; [|assumption]. now apply ders_cons_nil.
Qed.

Lemma ders_nil_app_inv a b : ders (a ++ b) [] -> ders a [] /\ ders b [].
Proof.
  intros H. apply ders_app_inv in H. destruct H as (u & v & Huv & Ha & Hb).
  symmetry in Huv. apply app_eq_nil in Huv. destruct Huv as [-> ->]. split; assumption.
Qed.

Lemma sstep_null a b : sstep a b -> ders b [] -> ders a [].
Proof.
  intros [alpha p pr rest Hp] H.
  apply ders_nil_app_inv in H. destruct H as [H1 H]. apply ders_nil_app_inv in H. destruct H as [H2 H3].
  change (@nil nat) with (@nil nat ++ []). apply ders_app; [assumption|].
  apply ders_cons_nil; [econstructor; eauto|assumption].
Qed.

Lemma sstep_first a b x : sstep a b -> first_ss g b x -> first_ss g a x.
Proof.
  intros [alpha p pr rest Hp]. induction alpha as [|Y alpha IH]; simpl; intros H.
  - destruct (first_ss_app_inv _ _ _ H) as [H1|[H1 H2]].
    + apply fss_here. econstructor; eauto.
    + apply fss_skip; [econstructor; eauto|assumption].
  - inversion H as [? ? ? HY|? ? ? HY Hr]; subst.
    + now apply fss_here.
    + apply fss_skip; [assumption|now apply IH].
Qed.

Theorem first_ss_sder beta b : first_ss g beta b <-> exists delta, sder beta (T b :: delta).
Proof.
  split; [apply (proj2 first_ss_to_sder)|].
  intros [delta H]. remember (T b :: delta) as c eqn:Hc.
  induction H as [a|a b' c Hs _ IH]; subst.
  - apply fss_here. constructor.
  - eapply sstep_first; [exact Hs|]. now apply IH.
Qed.

Theorem ders_nil_sder beta : ders beta [] <-> sder beta [].
Proof.
  split; [intros H; apply (proj2 der_sder _ _ H)|].
  intros H. remember (@nil sym) as c eqn:Hc.
  induction H as [a|a b c Hs _ IH]; subst; [constructor|].
  eapply sstep_null; [exact Hs|]. now apply IH.
Qed.

End Adequacy.

Lemma assoc_In X l t : assoc X l = Some t -> In (X, t) l.
Proof.
  induction l as [|[Y u] l IH]; simpl; [discriminate|].
  destruct (sym_eqb X Y) eqn:E.
  - intros H. inversion H; subst. apply sym_eqb_eq in E. subst. now left.
  - intros H. right. now apply IH.
Qed.

Lemma existsb_seq f n : existsb f (seq 0 n) = true <-> exists i, i < n /\ f i = true.
Proof.
  rewrite existsb_exists. split; intros (i & H & E); exists i; (split; [|exact E]).
  - apply in_seq in H. apply H.
  - apply in_seq. split; [apply Nat.le_0_l|exact H].
Qed.

Lemma path_from_snoc tr : forall gamma s X,
  path_from tr s (gamma ++ [X]) =
  match path_from tr s gamma with Some s1 => tr_at tr s1 X | None => None end.
Proof.
  induction gamma as [|Y gamma IH]; intros s X; simpl.
  - destruct (tr_at tr s X); reflexivity.
  - destruct (tr_at tr s Y) as [s'|]; [apply IH|reflexivity].
Qed.

Section Auto.
Variable g : grammar.
Variable nterms : nat.
Variable an : annot.
Variable tr : transitions.
Hypothesis AV : auto_valid g nterms an tr = true.

Notation items := (items_of an).
Notation nst := (nst an).

Lemma AV_parts :
  c_shape g nterms an tr = true /\ c_state0 an = true /\ f_first g an = true /\ x_null g an = true /\
  c_first g an = true /\ c_closed g an = true /\ c_just g an = true /\ c_goto_fwd g an tr = true /\
  c_goto_bwd g an tr = true /\ c_reach an tr = true.
Proof. pose proof AV as H. unfold auto_valid in H. do 9 (apply andb_prop in H; destruct H as [H ?]). repeat split; assumption. Qed.

Lemma AV_shape : c_shape g nterms an tr = true.
Proof. apply AV_parts. Qed.
Lemma AV_state0 : c_state0 an = true.
Proof. apply AV_parts. Qed.
Lemma AV_f_first : f_first g an = true.
Proof. apply AV_parts. Qed.
Lemma AV_x_null : x_null g an = true.
Proof. apply AV_parts. Qed.
Lemma AV_c_first : c_first g an = true.
Proof. apply AV_parts. Qed.
Lemma AV_closed : c_closed g an = true.
Proof. apply AV_parts. Qed.
Lemma AV_just : c_just g an = true.
Proof. apply AV_parts. Qed.
Lemma AV_goto_fwd : c_goto_fwd g an tr = true.
Proof. apply AV_parts. Qed.
Lemma AV_goto_bwd : c_goto_bwd g an tr = true.
Proof. apply AV_parts. Qed.
Lemma AV_reach : c_reach an tr = true.
Proof. apply AV_parts. Qed.

Lemma forall_st_P f : forall_st an f = true -> forall s, s < nst -> f s = true.
Proof. unfold forall_st. rewrite forallb_seq. auto. Qed.

Lemma forall_items_P f : forall_items an f = true -> forall s it, s < nst -> In it (items s) -> f s it = true.
Proof.
  unfold forall_items. intros H s it Hs Hin. exact (forallb_In _ _ (forall_st_P _ H s Hs) _ Hin).
Qed.

Lemma items_lt s it : In it (items s) -> s < nst.
Proof.
  intros H. destruct (Nat.lt_ge_cases s nst) as [|Hge]; [assumption|].
  unfold items_of in H. rewrite nth_overflow in H by assumption. destruct H.
Qed.

Lemma nst_pos : 0 < nst.
Proof.
  pose proof AV_shape as H. unfold c_shape in H.
  do 4 (apply andb_prop in H; destruct H as [H _]). now apply Nat.ltb_lt in H.
Qed.

Lemma nullable_nt_sound : forall n, nullable_nt an n = true -> der g (NT n) [].
Proof. exact (x_null_P g an AV_x_null). Qed.

Lemma first_nt_sound : forall n a, In a (first_nt an n) -> first_s g (NT n) a.
Proof. exact (c_first_P g an nullable_nt_sound AV_c_first). Qed.

Lemma state0_start : In (0, 0, EOFT) (items 0).
Proof.
  pose proof AV_state0 as H. unfold c_state0 in H. apply andb_true_iff in H.
  apply mem_item_In. apply H.
Qed.

Lemma state0_dot0 p k la : In (p, k, la) (items 0) -> k = 0.
Proof.
  pose proof AV_state0 as H. unfold c_state0 in H. apply andb_true_iff in H.
  destruct H as [_ H]. intros Hin. apply (forallb_In _ _ H) in Hin. now apply Nat.eqb_eq.
Qed.

Lemma closed_P s p k la pr B q prq b :
  In (p, k, la) (items s) -> nth_error g p = Some pr -> nth_error (rhs pr) k = Some (NT B) ->
  nth_error g q = Some prq -> lhs prq = B -> In b (first_seq an (skipn (S k) (rhs pr)) la) ->
  In (q, 0, b) (items s).
Proof.
  intros Hin Hp Hk Hq HB Hb. pose proof AV_closed as H.
  pose proof (forall_items_P _ H s _ (items_lt _ _ Hin) Hin) as Hc. cbv beta iota in Hc.
  rewrite Hp, Hk in Hc. subst B.
  apply mem_item_In. exact (forallb_In _ _ (forallb_In _ _ Hc _ (prods_of_spec g _ _ Hq)) _ Hb).
Qed.

Lemma goto_fwd_P s p k la pr X :
  In (p, k, la) (items s) -> nth_error g p = Some pr -> nth_error (rhs pr) k = Some X ->
  exists s', tr_at tr s X = Some s' /\ s' < nst /\ In (p, S k, la) (items s').
Proof.
  intros Hin Hp Hk. pose proof AV_goto_fwd as H.
  pose proof (forall_items_P _ H s _ (items_lt _ _ Hin) Hin) as Hc. cbv beta iota in Hc.
  rewrite Hp, Hk in Hc. destruct (tr_at tr s X) as [s'|]; [|discriminate].
  apply andb_true_iff in Hc. destruct Hc as [H1 H2]. apply Nat.ltb_lt in H1. apply mem_item_In in H2.
  exists s'. auto.
Qed.

Lemma goto_bwd_P s X s' : s < nst -> tr_at tr s X = Some s' ->
  s' < nst /\
  (exists p k la pr, In (p, k, la) (items s) /\ nth_error g p = Some pr /\ nth_error (rhs pr) k = Some X) /\
  (forall p k la, In (p, S k, la) (items s') ->
     exists pr, nth_error g p = Some pr /\ nth_error (rhs pr) k = Some X /\ In (p, k, la) (items s)).
Proof.
  intros Hs Htr. pose proof AV_goto_bwd as H.
  unfold tr_at in Htr. apply assoc_In in Htr.
  pose proof (forallb_In _ _ (forall_st_P _ H s Hs) _ Htr) as Hc. cbv beta iota in Hc.
  apply andb_prop in Hc. destruct Hc as [Hc H3]. apply andb_prop in Hc. destruct Hc as [H1 H2]. apply Nat.ltb_lt in H1.
  split; [assumption|]. split.
  - apply existsb_exists in H2. destruct H2 as ([[p k] la] & Hin & Hx).
    destruct (nth_error g p) as [pr|] eqn:Hp; [|discriminate].
    destruct (nth_error (rhs pr) k) as [Y|] eqn:Hk; [|discriminate].
    apply sym_eqb_eq in Hx. subst Y. exists p, k, la, pr. auto.
  - intros p k la Hin. pose proof (forallb_In _ _ H3 _ Hin) as Hc. cbv beta iota in Hc.
    destruct (nth_error g p) as [pr|] eqn:Hp; [|discriminate].
    destruct (nth_error (rhs pr) k) as [Y|] eqn:Hk; [|discriminate].
    apply andb_prop in Hc. destruct Hc as [Hx Hm]. apply sym_eqb_eq in Hx. subst Y.
    apply mem_item_In in Hm. exists pr. auto.
Qed.

Lemma target_not_0 s X s' : s < nst -> tr_at tr s X = Some s' -> s' <> 0.
Proof.
  intros Hs Htr Hz. subst s'.
  destruct (goto_bwd_P _ _ _ Hs Htr) as (_ & (p & k & la & pr & Hin & Hp & Hk) & _).
  destruct (goto_fwd_P _ _ _ _ _ _ Hin Hp Hk) as (s'' & Htr' & _ & Hin').
  rewrite Htr in Htr'. inversion Htr'; subst s''. apply state0_dot0 in Hin'. discriminate.
Qed.

(** [acc]: the items already scanned, newest first *)
Lemma cjust_ind (P : item -> Prop) (is0 : bool) :
  (forall q b it, P it -> just_by g an q b it = true -> P (q, 0, b)) ->
  (is0 = true -> P (0, 0, EOFT)) ->
  forall rest acc, cjust_list g an is0 acc rest = true ->
    (forall it, In it acc -> P it) ->
    (forall p k la, In (p, S k, la) rest -> P (p, S k, la)) ->
    forall it, In it rest -> P it.
Proof.
  intros Hj Hs. induction rest as [|[[q k] b] rest IH]; intros acc H Hacc Hker it Hin; [destruct Hin|].
  cbn [cjust_list] in H. apply andb_true_iff in H. destruct H as [H1 H2].
  assert (Hhd : P (q, k, b)).
  { destruct k as [|k]; [|apply Hker; now left].
    apply orb_true_iff in H1. destruct H1 as [H1|H1].
    - apply andb_prop in H1. destruct H1 as [H1 Hb]. apply andb_prop in H1. destruct H1 as [H0 Hq].
      apply Nat.eqb_eq in Hq, Hb. subst q b. now apply Hs.
    - apply existsb_exists in H1. destruct H1 as (it' & Hin' & Hjb). exact (Hj _ _ _ (Hacc _ Hin') Hjb). }
  destruct Hin as [<-|Hin]; [exact Hhd|].
  apply (IH ((q, k, b) :: acc)); auto.
  - intros it' [<-|Hi]; auto.
  - intros p' k' la' Hi. apply Hker. now right.
Qed.

Lemma just_CI gamma s : s < nst -> (s = 0 -> gamma = []) ->
  (forall p k la, In (p, S k, la) (items s) -> CI g gamma (p, S k, la)) ->
  forall it, In it (items s) -> CI g gamma it.
Proof.
  intros Hs H0 Hker. pose proof AV_just as H.
  pose proof (forall_st_P _ H s Hs) as Hc. cbv beta in Hc.
  apply (cjust_ind (CI g gamma) (Nat.eqb s 0)) with (acc := []); auto.
  - intros q b [[p k] la] HP Hj.
    destruct (just_by_P _ _ _ _ _ _ _ Hj) as (pr & prq & Hp & Hq & Hk & Hb).
    exact (CI_closure g gamma p k la pr _ q prq b HP Hp Hk Hq eq_refl (first_seq_sem g an nullable_nt_sound first_nt_sound _ _ _ Hb)).
  - intros E. apply Nat.eqb_eq in E. rewrite (H0 E). constructor.
  - intros it [].
Qed.

Lemma items_sub : forall gamma s, path tr gamma = Some s ->
  s < nst /\ (gamma <> [] -> s <> 0) /\ forall it, In it (items s) -> CI g gamma it.
Proof.
  induction gamma as [|X gamma IH] using rev_ind; intros s Hp.
  - unfold path in Hp. simpl in Hp. inversion Hp; subst s.
    split; [exact nst_pos|]. split; [congruence|].
    apply just_CI; [exact nst_pos|reflexivity|].
    intros p k la Hin. apply state0_dot0 in Hin. discriminate.
  - unfold path in Hp. rewrite path_from_snoc in Hp.
    destruct (path_from tr 0 gamma) as [s1|] eqn:Hp1; [|discriminate].
    destruct (IH _ Hp1) as (Hs1 & _ & IHi).
    destruct (goto_bwd_P _ _ _ Hs1 Hp) as (Hs & _ & Hker).
    pose proof (target_not_0 _ _ _ Hs1 Hp) as Hne.
    split; [exact Hs|]. split; [auto|].
    apply just_CI; [exact Hs|intros E; contradiction|].
    intros p k la Hin. destruct (Hker _ _ _ Hin) as (pr & Hp' & Hk & Hin1).
    exact (CI_goto g gamma p k la pr X (IHi _ Hin1) Hp' Hk).
Qed.

Lemma items_sup : forall gamma it, CI g gamma it -> exists s, path tr gamma = Some s /\ In it (items s).
Proof.
  induction 1 as [|gamma p k la pr B q prq b _ IH Hp Hk Hq HB Hf|gamma p k la pr X _ IH Hp Hk].
  - exists 0. split; [reflexivity|exact state0_start].
  - destruct IH as (s & Hpath & Hin). exists s. split; [assumption|].
    eapply closed_P; eauto. apply (FIRST_sem_closed g an AV_f_first). exact Hf.
  - destruct IH as (s & Hpath & Hin).
    destruct (goto_fwd_P _ _ _ _ _ _ Hin Hp Hk) as (s' & Htr & _ & Hin').
    exists s'. split; [|assumption]. unfold path in *. now rewrite path_from_snoc, Hpath.
Qed.

Lemma reach_P s : 0 < s -> s < nst -> exists s' X, s' < s /\ tr_at tr s' X = Some s.
Proof.
  intros H0 Hs. pose proof AV_reach as H.
  assert (Hin : In s (seq 1 (nst - 1))) by (apply in_seq; lia).
  apply (forallb_In _ _ H), existsb_seq in Hin. destruct Hin as (s' & Hs' & He).
  apply existsb_exists in He. destruct He as ([X t] & _ & He).
  apply andb_prop in He. destruct He as [_ He]. cbn [fst] in He.
  destruct (tr_at tr s' X) as [t'|] eqn:E; [|discriminate]. apply Nat.eqb_eq in He. subst t'.
  exists s', X. split; assumption.
Qed.

Lemma reachable : forall s, s < nst -> exists gamma, path tr gamma = Some s.
Proof.
  induction s as [s IH] using lt_wf_ind. intros Hs.
  destruct s as [|s]; [exists []; reflexivity|].
  destruct (reach_P (S s)) as (s' & X & Hlt & Htr); [lia|assumption|].
  destruct (IH s' Hlt) as [gamma Hg]; [lia|].
  exists (gamma ++ [X]). unfold path in *. now rewrite path_from_snoc, Hg.
Qed.

Theorem auto_canonical :
  (forall gamma s, path tr gamma = Some s -> s < nst /\ forall it, In it (items s) <-> CI g gamma it) /\
  (forall s, s < nst -> exists gamma, path tr gamma = Some s) /\
  (forall gamma, canonical_state g gamma -> exists s, path tr gamma = Some s).
Proof.
  split; [|split].
  - intros gamma s Hp. destruct (items_sub _ _ Hp) as (Hs & _ & Hsub). split; [assumption|].
    intros it. split; [apply Hsub|].
    intros Hc. destruct (items_sup _ _ Hc) as (s2 & Hp2 & Hin). rewrite Hp in Hp2. now inversion Hp2.
  - exact reachable.
  - intros gamma [it Hc]. destruct (items_sup _ _ Hc) as (s & Hp & _). eauto.
Qed.

Lemma state_CI s : s < nst -> exists gamma, path tr gamma = Some s /\ forall it, In it (items s) <-> CI g gamma it.
Proof.
  intros Hs. destruct auto_canonical as (A1 & A2 & _). destruct (A2 s Hs) as [gamma Hg].
  exists gamma. split; [assumption|]. apply (A1 _ _ Hg).
Qed.

End Auto.

Definition kind (x : act) : sact :=
  match x with Accept => SAccept | Reduce p => SReduce p | Shift _ => SShift end.

Lemma CI_wf g : forall gamma p k la pr, CI g gamma (p, k, la) -> nth_error g p = Some pr -> k <= length (rhs pr).
Proof.
  intros gamma p k la pr H. remember (p, k, la) as it eqn:E. revert p k la pr E.
  induction H as [|gamma p' k' la' pr' B q prq b _ _ Hp Hk Hq HB Hf|gamma p' k' la' pr' X _ _ Hp Hk];
    intros p k la pr E Hpr; inversion E; subst; [lia|lia|].
  rewrite Hp in Hpr. inversion Hpr; subst.
  assert (k' < length (rhs pr)) by (apply nth_error_Some; congruence). lia.
Qed.

Lemma first_s_body g :
  (forall X b, first_s g X b -> X = T b \/ exists pr, In pr g /\ In (T b) (rhs pr)) /\
  (forall beta b, first_ss g beta b -> In (T b) beta \/ exists pr, In pr g /\ In (T b) (rhs pr)).
Proof.
  apply first_s_ss_min.
  - intros a. now left.
  - intros p pr b Hp _ [IH|IH]; right; [|assumption]. exists pr. split; [eapply nth_error_In; eauto|assumption].
  - intros X beta b _ [->|IH]; [left; now left|now right].
  - intros X beta b _ _ [IH|IH]; [left; now right|now right].
Qed.

Lemma der_first_s g :
  (forall X u, der g X u -> forall a w, u = a :: w -> first_s g X a) /\
  (forall gamma u, ders g gamma u -> forall a w, u = a :: w -> first_ss g gamma a).
Proof.
  apply der_ders_min.
  - intros a b w E. inversion E; subst. constructor.
  - intros p pr u Hp _ IH a w E. econstructor; eauto.
  - intros a w E. discriminate.
  - intros X gamma u v HX IH1 _ IH2 a w E. destruct u as [|b u].
    + simpl in E. apply fss_skip; [assumption|eauto].
    + simpl in E. inversion E; subst b. apply fss_here. eapply IH1; eauto.
Qed.

Lemma first_seq_nonempty g an beta u la : f_first g an = true -> ders g beta u ->
  exists b, In b (first_seq an beta la).
Proof.
  intros FF H. destruct u as [|a w].
  - exists la. apply (FIRST_sem_closed g an FF). right. auto.
  - exists a. apply (FIRST_sem_closed g an FF). left. eapply (proj2 (der_first_s g)); eauto.
Qed.

Lemma CI_dot_back g gamma it : CI g gamma it -> let '(p, _, la) := it in exists gamma0, CI g gamma0 (p, 0, la).
Proof.
  induction 1 as [|gamma p k la pr B q prq b H1 _ Hp Hk Hq HB Hf|gamma p k la pr X _ IH _ _]; cbv beta iota in *.
  - exists []. constructor.
  - exists gamma. eapply CI_closure; eauto.
  - exact IH.
Qed.

Lemma CI_dot_fwd g gamma0 p la pr : CI g gamma0 (p, 0, la) -> nth_error g p = Some pr ->
  forall j, j <= length (rhs pr) -> CI g (gamma0 ++ firstn j (rhs pr)) (p, j, la).
Proof.
  intros H0 Hp. induction j as [|j IH]; intros Hj.
  - simpl. now rewrite app_nil_r.
  - destruct (nth_error (rhs pr) j) as [X|] eqn:EX; [|apply nth_error_None in EX; lia].
    rewrite (firstn_S_nth j (rhs pr) X) by lia. rewrite app_assoc.
    rewrite (nth_error_nth _ _ X EX). eapply CI_goto; eauto. apply IH. lia.
Qed.

Section Cand.
Variable g : grammar.

Lemma cand_shift it a ns u : cand g it a ns = Some (Shift u) -> u = ns.
Proof.
  destruct it as [[p k] la]. unfold cand. destruct (Nat.eqb a INVALIDT); [discriminate|].
  destruct (nth_error g p) as [pr|]; [|discriminate].
  destruct (_ && _ && _ && _); [discriminate|]. destruct (_ && _); [discriminate|].
  destruct (nth_error (rhs pr) k) as [[b|n]|]; try discriminate.
  destruct (Nat.eqb b a); [|discriminate]. intros H; now inversion H.
Qed.

Lemma cand_sound (S : item -> Prop) it a ns x :
  (forall p k la pr, S (p, k, la) -> nth_error g p = Some pr -> k <= length (rhs pr)) ->
  S it -> cand g it a ns = Some x ->
  spec_cand g S a (kind x) /\ (forall t, x = Shift t -> t = ns).
Proof.
  intros Hwf HS Hc. split; [|intros t ->; exact (cand_shift _ _ _ _ Hc)].
  destruct it as [[p k] la]. unfold cand in Hc.
  destruct (Nat.eqb a INVALIDT) eqn:Ea; [discriminate|]. apply Nat.eqb_neq in Ea. split; [exact Ea|].
  destruct (nth_error g p) as [pr|] eqn:Hp; [|discriminate].
  pose proof (Hwf _ _ _ _ HS Hp) as Hk.
  assert (Hkk : (length (rhs pr) <=? k) = true -> length (rhs pr) = k).
  { intros H. apply Nat.leb_le in H. apply Nat.le_antisymm; assumption. }
  destruct (Nat.eqb p 0 && (length (rhs pr) <=? k) && Nat.eqb la EOFT && Nat.eqb a EOFT) eqn:E1.
  - injection Hc as <-. apply andb_prop in E1. destruct E1 as [E1 H4]. apply andb_prop in E1. destruct E1 as [E1 H3].
    apply andb_prop in E1. destruct E1 as [H1 H2].
    apply Nat.eqb_eq in H1, H3, H4. subst p la a.
    simpl. split; [reflexivity|]. exists pr. rewrite (Hkk H2). auto.
  - destruct ((length (rhs pr) <=? k) && Nat.eqb la a) eqn:E2.
    + injection Hc as <-. apply andb_prop in E2. destruct E2 as [H2 H3].
      apply Nat.eqb_eq in H3. subst la.
      simpl. split; [|exists pr; rewrite (Hkk H2); auto].
      intros [-> ->]. rewrite H2 in E1. discriminate E1.
    + destruct (nth_error (rhs pr) k) as [[b|n]|] eqn:Hn; try discriminate.
      destruct (Nat.eqb b a) eqn:Eb; [|discriminate]. apply Nat.eqb_eq in Eb. subst b.
      injection Hc as <-. simpl. exists p, k, la, pr. auto.
Qed.

Lemma cand_complete (S : item -> Prop) a ns x :
  spec_cand g S a x -> exists it y, S it /\ cand g it a ns = Some y /\ kind y = x.
Proof.
  intros [Ha H]. apply Nat.eqb_neq in Ha. destruct x as [|p|].
  - destruct H as (-> & pr0 & Hp & HS). exists (0, length (rhs pr0), EOFT), Accept.
    split; [assumption|]. split; [|reflexivity]. unfold cand. rewrite Ha, Hp, Nat.leb_refl. reflexivity.
  - destruct H as (Hne & pr & Hp & HS). exists (p, length (rhs pr), a), (Reduce p).
    split; [assumption|]. split; [|reflexivity]. unfold cand. rewrite Ha, Hp, Nat.leb_refl, Nat.eqb_refl.
    destruct (Nat.eqb p 0 && true && Nat.eqb a EOFT && Nat.eqb a EOFT) eqn:E; [|reflexivity].
    exfalso. rewrite !andb_true_iff in E. destruct E as [[[H1 _] H2] _].
    apply Nat.eqb_eq in H1, H2. auto.
  - destruct H as (p & k & la & pr & HS & Hp & Hk). exists (p, k, la), (Shift ns).
    split; [assumption|]. split; [|reflexivity]. unfold cand. rewrite Ha, Hp, Hk, Nat.eqb_refl.
    assert (Hl : (length (rhs pr) <=? k) = false).
    { apply Nat.leb_gt. apply nth_error_Some. congruence. }
    rewrite Hl. rewrite !andb_false_r. reflexivity.
Qed.

End Cand.

Lemma filter_length_pos {A} (f : A -> bool) l : 0 < length (filter f l) <-> exists x, In x l /\ f x = true.
Proof.
  split.
  - destruct (filter f l) as [|x r] eqn:E; simpl; [lia|]. intros _.
    assert (Hin : In x (filter f l)) by (rewrite E; now left). apply filter_In in Hin. eauto.
  - intros (x & Hin & Hf). assert (H : In x (filter f l)) by (apply filter_In; auto).
    destruct (filter f l); [destruct H|simpl; lia].
Qed.

Lemma table_exists (f : nat -> nat -> bool) n m :
  existsb (fun s => existsb (f s) (seq 0 m)) (seq 0 n) = true <-> exists s a, s < n /\ a < m /\ f s a = true.
Proof.
  rewrite existsb_seq. split.
  - intros (s & Hs & E). apply existsb_seq in E. destruct E as (a & Ha & E). eauto.
  - intros (s & a & Hs & Ha & E). exists s. split; [exact Hs|]. apply existsb_seq. eauto.
Qed.

Section Reports.
Variable g : grammar.
Variable nterms : nat.
Variable an : annot.
Variable tr : transitions.
Hypothesis AV : auto_valid g nterms an tr = true.

Notation items := (items_of an).
Notation nst := (nst an).
Notation cands := (cands g an tr).
Notation cell := (cell g an tr).

Definition dump_conflict (s a : nat) : Prop :=
  exists x y, x <> y /\ In (Some x) (cands s a) /\ In (Some y) (cands s a).

Lemma in_cands s a x : In (Some x) (cands s a) <-> exists it, In it (items s) /\ cand g it a (target tr s a) = Some x.
Proof.
  unfold Canonical.cands. rewrite in_map_iff. split.
  - intros (it & H & Hin). eauto.
  - intros (it & Hin & H). eauto.
Qed.

Lemma shape_terms : EOFT < nterms /\
  (forall pr X, In pr g -> In X (rhs pr) -> match X with T a => a < nterms | NT _ => True end) /\
  (forall s p k la, In (p, k, la) (items s) -> la < nterms).
Proof.
  pose proof (AV_shape _ _ _ _ AV) as H. unfold c_shape in H.
  apply andb_prop in H. destruct H as [H H3]. apply andb_prop in H. destruct H as [H H2].
  apply andb_prop in H. destruct H as [_ H1]. apply Nat.ltb_lt in H1. split; [assumption|]. split.
  - intros pr X Hpr HX. apply (forallb_In _ _ (forallb_In _ _ H2 _ Hpr)) in HX.
    destruct X; [now apply Nat.ltb_lt|exact I].
  - intros s p k la Hin. pose proof (forall_items_P an _ H3 s _ (items_lt an _ _ Hin) Hin) as Hc.
    now apply Nat.ltb_lt in Hc.
Qed.

(** candidates of one cell with the same kind are equal: its shifts all go to [target tr s a] *)
Lemma cands_kind_inj s a x y : In (Some x) (cands s a) -> In (Some y) (cands s a) -> kind x = kind y -> x = y.
Proof.
  intros Hx Hy Hk. apply in_cands in Hx, Hy. destruct Hx as (itx & _ & Hx), Hy as (ity & _ & Hy).
  destruct x as [t|p|], y as [t'|p'|]; simpl in Hk; try congruence.
  rewrite (cand_shift g _ _ _ _ Hx), (cand_shift g _ _ _ _ Hy). reflexivity.
Qed.

Lemma cands_sound gamma s a x : path tr gamma = Some s -> In (Some x) (cands s a) ->
  canonical_state g gamma /\ spec_cand g (CI g gamma) a (kind x).
Proof.
  intros Hp Hx. destruct (proj1 (auto_canonical g nterms an tr AV) _ _ Hp) as (_ & Hiff).
  apply in_cands in Hx. destruct Hx as (it & Hin & Hc). apply Hiff in Hin.
  split; [exists it; exact Hin|]. apply (cand_sound g (CI g gamma) _ _ _ _ (CI_wf g gamma) Hin Hc).
Qed.

Lemma cands_complete gamma s a x : path tr gamma = Some s -> spec_cand g (CI g gamma) a x ->
  a < nterms /\ exists y, In (Some y) (cands s a) /\ kind y = x.
Proof.
  intros Hp Hx. destruct (proj1 (auto_canonical g nterms an tr AV) _ _ Hp) as (_ & Hiff). split.
  - (* the terminal is a column of gocc's table *)
    destruct shape_terms as (He & Hg & Hl). destruct Hx as [_ Hx]. destruct x as [|p|].
    + destruct Hx as [-> _]. exact He.
    + destruct Hx as (_ & pr & _ & HS). apply Hiff in HS. exact (Hl _ _ _ _ HS).
    + destruct Hx as (p & k & la & pr & _ & Hpr & Hk).
      exact (Hg pr (T a) (nth_error_In _ _ Hpr) (nth_error_In _ _ Hk)).
  - destruct (cand_complete g _ a (target tr s a) _ Hx) as (it & y & HS & Hc & Hk).
    exists y. split; [|exact Hk]. apply in_cands. exists it. split; [apply Hiff; exact HS|exact Hc].
Qed.

Lemma dump_conflict_canonical :
  (exists s a, s < nst /\ a < nterms /\ dump_conflict s a) <-> canonical_conflict g.
Proof.
  destruct (auto_canonical g nterms an tr AV) as (Hcan & Hreach & Hstate). split.
  - intros (s & a & Hs & Ha & x & y & Hxy & Hx & Hy). destruct (Hreach s Hs) as [gamma Hp].
    destruct (cands_sound _ _ _ _ Hp Hx) as [Hst Sx]. destruct (cands_sound _ _ _ _ Hp Hy) as [_ Sy].
    exists gamma, a, (kind x), (kind y). split; [exact Hst|]. split; [|split; assumption].
    intros Hk. exact (Hxy (cands_kind_inj _ _ _ _ Hx Hy Hk)).
  - intros (gamma & a & x & y & Hst & Hxy & Hx & Hy). destruct (Hstate _ Hst) as [s Hp].
    destruct (cands_complete _ _ _ _ Hp Hx) as (Ha & x' & Hx' & Kx).
    destruct (cands_complete _ _ _ _ Hp Hy) as (_ & y' & Hy' & Ky).
    exists s, a. split; [apply (Hcan _ _ Hp)|]. split; [exact Ha|].
    exists x', y'. split; [congruence|]. split; assumption.
Qed.

Lemma cell_conflict_P s a : cell_conflict g an tr s a = true -> dump_conflict s a.
Proof.
  unfold cell_conflict. destruct (cell s a) as [[w cf]|] eqn:E; [|discriminate].
  destruct cf as [|c cf]; [discriminate|]. intros _.
  apply (row_action_conflicts_nonempty _ _ _ E). discriminate.
Qed.

Lemma cell_panics_P s a : cell_panics g an tr s a = true <->
  In (Some Accept) (cands s a) /\ exists x, x <> Accept /\ In (Some x) (cands s a).
Proof.
  unfold cell_panics. split.
  - destruct (cell s a) as [[w cf]|] eqn:E; [discriminate|]. intros _.
    apply row_action_panic in E. destruct E as [E|(t & t' & Hne & H1 & H2)]; [exact E|].
    pose proof (cands_kind_inj _ _ _ _ H1 H2 eq_refl). congruence.
  - intros H. destruct (cell s a) as [[w cf]|] eqn:E; [|reflexivity].
    exfalso. assert (Hp : row_action (cands s a) = None) by (apply row_action_panic; now left).
    unfold Canonical.cell in E. congruence.
Qed.

Lemma dump_conflict_cases s a : dump_conflict s a ->
  cell_panics g an tr s a = true \/ cell_conflict g an tr s a = true.
Proof.
  intros H. unfold cell_panics, cell_conflict. destruct (cell s a) as [[w cf]|] eqn:E; [|now left].
  right. apply (row_action_conflicts_nonempty _ _ _ E) in H. destruct cf; [congruence|reflexivity].
Qed.

Lemma reports_none : gocc_reports g nterms an tr = None <->
  exists s a, s < nst /\ a < nterms /\ cell_panics g an tr s a = true.
Proof.
  rewrite <- (table_exists (cell_panics g an tr)). unfold gocc_reports.
  destruct (existsb _ _); split; (reflexivity || discriminate).
Qed.

Lemma reports_some n : gocc_reports g nterms an tr = Some n ->
  (forall s a, s < nst -> a < nterms -> cell_panics g an tr s a = false) /\
  (0 < n <-> exists s a, s < nst /\ a < nterms /\ cell_conflict g an tr s a = true).
Proof.
  intros H. unfold gocc_reports in H. pose proof (table_exists (cell_panics g an tr) nst nterms) as T.
  destruct (existsb _ _); [discriminate|]. injection H as <-. split.
  - intros s a Hs Ha. destruct (cell_panics g an tr s a) eqn:E; [|reflexivity].
    assert (false = true) by (apply T; eauto). discriminate.
  - rewrite filter_length_pos, <- (table_exists (cell_conflict g an tr)), existsb_exists. reflexivity.
Qed.

(** when gocc does not panic, it announces conflicts iff the canonical collection has one *)
Theorem C04_reports n : gocc_reports g nterms an tr = Some n -> (0 < n <-> canonical_conflict g).
Proof.
  intros H. destruct (reports_some _ H) as [Hnp Hn]. rewrite Hn, <- dump_conflict_canonical. split.
  - intros (s & a & Hs & Ha & Hc). exists s, a. repeat split; auto. now apply cell_conflict_P.
  - intros (s & a & Hs & Ha & Hc). exists s, a. repeat split; auto.
    destruct (dump_conflict_cases _ _ Hc) as [Hp|Hc']; [|assumption].
    rewrite (Hnp s a Hs Ha) in Hp. discriminate.
Qed.

(** gocc panics while resolving iff the canonical collection has an accept conflict *)
Theorem C04_panics : gocc_reports g nterms an tr = None <-> canonical_accept_conflict g.
Proof.
  destruct (auto_canonical g nterms an tr AV) as (Hcan & Hreach & Hstate).
  rewrite reports_none. split.
  - intros (s & a & Hs & Ha & Hp). apply cell_panics_P in Hp. destruct Hp as (HA & x & Hx & Hin).
    destruct (Hreach s Hs) as [gamma Hp].
    destruct (cands_sound _ _ _ _ Hp HA) as [Hst SA]. destruct (cands_sound _ _ _ _ Hp Hin) as [_ Sx].
    exists gamma, a, (kind x). split; [exact Hst|]. split; [|split; assumption].
    destruct x; simpl; congruence.
  - intros (gamma & a & x & Hst & Hx & HA & HX). destruct (Hstate _ Hst) as [s Hp].
    destruct (cands_complete _ _ _ _ Hp HA) as (Ha & a' & Ha' & Ka).
    destruct (cands_complete _ _ _ _ Hp HX) as (_ & x' & Hx' & Kx).
    exists s, a. split; [apply (Hcan _ _ Hp)|]. split; [exact Ha|].
    apply cell_panics_P. destruct a'; try discriminate Ka. split; [exact Ha'|].
    exists x'. split; [intros ->; apply Hx; symmetry; exact Kx|exact Hx'].
Qed.

(** C04: the canonical collection has a conflict iff gocc announces one (or refuses to resolve) *)
Theorem C04_conflict_iff :
  canonical_conflict g <->
  (gocc_reports g nterms an tr = None \/ exists n, gocc_reports g nterms an tr = Some n /\ 0 < n).
Proof.
  split.
  - intros H. destruct (gocc_reports g nterms an tr) as [n|] eqn:E; [|now left].
    right. exists n. split; [reflexivity|]. now apply (C04_reports n E).
  - intros [H|(n & H & Hn)].
    + apply C04_panics in H. destruct H as (gamma & a & x & Hst & Hx & HA & HX).
      exists gamma, a, SAccept, x. split; [assumption|]. split; [congruence|]. split; assumption.
    + now apply (C04_reports n H).
Qed.

End Reports.

(** * Non-vacuity: the ambiguous grammar  E : E "+" E | "a"  with the automaton dumped by gocc
    (terminals: 0 INVALID, 1 end of input, 2 "+", 3 "a"; nonterminals: 0 S', 1 E).
    The dump passes [auto_valid]; state 4 = { E : E "+" E . , E : E . "+" E } has the
    shift/reduce conflict on "+", and gocc announces "1 LR-1 conflicts". *)
Module CanonicalExample.
Definition ex_g : grammar :=
  [{| lhs := 0; rhs := [NT 1] |}; {| lhs := 1; rhs := [NT 1; T 2; NT 1] |}; {| lhs := 1; rhs := [T 3] |}].
Definition ex_an : annot := {|
  a_items := [
    [(0,0,1); (1,0,1); (2,0,1); (1,0,2); (2,0,2)];
    [(0,1,1); (1,1,1); (1,1,2)];
    [(2,1,1); (2,1,2)];
    [(1,2,1); (1,2,2); (1,0,1); (2,0,1); (1,0,2); (2,0,2)];
    [(1,3,1); (1,3,2); (1,1,1); (1,1,2)]];
  a_nullable := [false; false];
  a_first := [[3]; [3]] |}.
Definition ex_tr : transitions :=
  [[(NT 1, 1); (T 3, 2)]; [(T 2, 3)]; []; [(NT 1, 4); (T 3, 2)]; [(T 2, 3)]].

Example ex_valid : auto_valid ex_g 4 ex_an ex_tr = true.
Proof. vm_compute. reflexivity. Qed.
Example ex_reports : gocc_reports ex_g 4 ex_an ex_tr = Some 1.
Proof. vm_compute. reflexivity. Qed.
Example ex_cell : cell ex_g ex_an ex_tr 4 2 = Some (Some (Shift 3), [Reduce 1; Shift 3]).
Proof. vm_compute. reflexivity. Qed.
Example ex_canonical_conflict : canonical_conflict ex_g.
Proof. apply (C04_reports ex_g 4 ex_an ex_tr ex_valid 1 ex_reports). auto. Qed.
(** the state reached along  E "+" E  is state 4 (hence, by [auto_canonical] and [ex_valid], its items are exactly
    the canonical ones) *)
Example ex_path : path ex_tr [NT 1; T 2; NT 1] = Some 4.
Proof. reflexivity. Qed.

(** the grammar  S : S  (item sets from gocc's LR1_sets.txt): state 1 = { S' : S . , S : S . }
    has accept against reduce on end of input; gocc panics ("Cannot have LR1 conflict with
    Accept"), in both modes *)
Definition ex2_g : grammar := [{| lhs := 0; rhs := [NT 1] |}; {| lhs := 1; rhs := [NT 1] |}].
Definition ex2_an : annot := {|
  a_items := [ [(0,0,1); (1,0,1)]; [(0,1,1); (1,1,1)] ];
  a_nullable := [false; false];
  a_first := [[]; []] |}.
Definition ex2_tr : transitions := [[(NT 1, 1)]; []].
Example ex2_valid : auto_valid ex2_g 2 ex2_an ex2_tr = true.
Proof. vm_compute. reflexivity. Qed.
Example ex2_reports : gocc_reports ex2_g 2 ex2_an ex2_tr = None.
Proof. vm_compute. reflexivity. Qed.
Example ex2_accept_conflict : canonical_accept_conflict ex2_g.
Proof. apply (C04_panics ex2_g 2 ex2_an ex2_tr ex2_valid). exact ex2_reports. Qed.
End CanonicalExample.

Print Assumptions first_ss_sder.
Print Assumptions auto_canonical.
Print Assumptions C04_reports.
Print Assumptions C04_panics.
Print Assumptions C04_conflict_iff.
