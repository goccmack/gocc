(** Canonical LR(1) tables: every item of the state on top of the stack is VALID for the
    viable prefix spelled by the stack.  Consequences: the consumed input is a viable prefix,
    and a non-nil action on terminal [a] implies that [a] is a legal continuation. *)
From Coq Require Import List Arith ZArith Lia Bool.
From Gocc Require Import LR.Parse LR.Validate LR.ValidateProofs LR.Complete LR.Derive LR.Steps LR.Exact.
Import ListNotations.

Lemma split_at_nth {A} : forall k (l : list A) x, nth_error l k = Some x -> l = firstn k l ++ x :: skipn (S k) l.
Proof.
  induction k as [|k IH]; intros [|y l] x H; simpl in *; try discriminate.
  - now inversion H.
  - f_equal. now apply IH.
Qed.

Lemma skipn_at_nth {A} : forall k (l : list A) x, nth_error l k = Some x -> skipn k l = x :: skipn (S k) l.
Proof.
  induction k as [|k IH]; intros [|y l] x H; simpl in *; try discriminate.
  - now inversion H.
  - now apply IH.
Qed.

Lemma firstn_app_le' {A} (l1 l2 : list A) n : n <= length l1 -> firstn n (l1 ++ l2) = firstn n l1.
Proof. apply firstn_app_le. Qed.

Section Viable.
Variable g : grammar.
Variable tb : tables.
Variable an : annot.
Hypothesis VF : valid_forward g tb an = true.
Hypothesis VB : valid_backward g tb an = true.
Hypothesis XC : x_checks g tb an = true.
Hypothesis NESb : no_error_shift tb = true.
Variables (pr0 : prod) (X0 : sym).
Hypothesis Hpr0 : nth_error g 0 = Some pr0.
Hypothesis Hrhs0 : rhs pr0 = [X0].

Notation der := (der g).
Notation ders := (ders g).
Notation items_of := (items_of an).

Lemma SH : shape_P g tb an.
Proof. exact (V_shape g tb an VF). Qed.

Lemma BW : backward_P g tb an.
Proof. apply valid_backward_P; [exact SH|exact VB]. Qed.

Lemma NES' : forall s s', action_at tb s (t_err tb) <> Some (Some (Shift s')).
Proof. apply (no_error_shift_P g tb an SH NESb). Qed.

Lemma XC_parts : x_null g an = true /\ x_first g tb an = true /\ x_prod g tb an = true /\
                 x_noeof g = true /\ x_recover tb = true /\ x_closure g tb an = true.
Proof.
  pose proof XC as H. unfold x_checks in H.
  do 5 (apply andb_prop in H; destruct H as [H ?]). repeat split; assumption.
Qed.

Lemma NUL : forall n, nullable_nt an n = true -> der (NT n) [].
Proof. apply x_null_P. apply XC_parts. Qed.

Lemma PROD s p k la pr : In (p, k, la) (items_of s) -> nth_error g p = Some pr ->
  forall X, In X (rhs pr) -> exists u, der X u.
Proof.
  intros Hin. apply (x_prod_P g tb an) with (s := s) (k := k) (la := la); [apply XC_parts| |exact Hin].
  eapply items_of_range; [exact SH|exact Hin].
Qed.

Lemma FIRSTX s p k la pr : In (p, k, la) (items_of s) -> nth_error g p = Some pr ->
  forall n a, In (NT n) (rhs pr) -> In a (first_nt an n) -> exists u, der (NT n) (a :: u).
Proof.
  intros Hin. apply (x_first_P g tb an NUL) with (s := s) (k := k) (la := la); [apply XC_parts| |exact Hin].
  eapply items_of_range; [exact SH|exact Hin].
Qed.

Lemma NOEOF u : der X0 u -> ~ In EOFT u.
Proof.
  intros H. destruct (x_noeof_P g) as [H1 _]; [apply XC_parts|]. apply (H1 _ _ H).
  intros ->. destruct XC_parts as (_ & _ & _ & Hn & _). unfold x_noeof in Hn.
  rewrite forallb_forall in Hn. specialize (Hn _ (nth_error_In _ _ Hpr0)).
  rewrite Hrhs0 in Hn. simpl in Hn. discriminate.
Qed.

Lemma NOREC : forall s, recover_at tb s = false.
Proof. apply x_recover_P; [apply XC_parts|exact NES']. Qed.

Lemma suffix_productive s p k la pr j :
  In (p, k, la) (items_of s) -> nth_error g p = Some pr -> exists y, ders (skipn j (rhs pr)) y.
Proof.
  intros Hin Hp. apply ders_all. intros X HX. apply (PROD _ _ _ _ _ Hin Hp).
  eapply In_skipn; eauto.
Qed.

(** [pctx p delta z]: production [p] can be applied with the sentential prefix [delta] to its
    left and the terminal string [z] to its right, in a derivation from the start symbol *)
Inductive pctx : nat -> list sym -> list nat -> Prop :=
| pctx_start : pctx 0 [] []
| pctx_step p pr k q prq delta z y :
    pctx p delta z -> nth_error g p = Some pr -> nth_error (rhs pr) k = Some (NT (lhs prq)) ->
    nth_error g q = Some prq -> q <> 0 -> ders (skipn (S k) (rhs pr)) y ->
    pctx q (delta ++ firstn k (rhs pr)) (y ++ z).

Lemma pctx_sentence p delta z : pctx p delta z ->
  forall pr x y, nth_error g p = Some pr -> ders delta x -> ders (rhs pr) y -> der X0 (x ++ y ++ z).
Proof.
  induction 1 as [|p pr k q prq delta z y' Hc IH Hp Hk Hq Hq0 Hy']; intros pr1 x y Hp1 Hx Hy.
  - rewrite Hpr0 in Hp1. inversion Hp1; subst pr1. rewrite Hrhs0 in Hy.
    apply ders_nil_inv in Hx. subst x. rewrite app_nil_r. simpl. now apply ders_single_inv.
  - rewrite Hq in Hp1. inversion Hp1; subst pr1.
    apply ders_app_inv in Hx. destruct Hx as (x1 & x2 & -> & Hx1 & Hx2).
    assert (Hr : ders (rhs pr) (x2 ++ y ++ y')).
    { rewrite (split_at_nth _ _ _ Hk). apply ders_app; [assumption|].
      constructor; [econstructor; eauto|assumption]. }
    specialize (IH pr x1 _ Hp Hx1 Hr).
    rewrite <- !app_assoc in *. exact IH.
Qed.

(** LR(1) validity of an item for the viable prefix [sr]: [delta] and [z] are the left and right
    context of its production; the look-ahead is the first terminal of [z], or end of input *)
Definition valid_item (sr : list sym) (it : item) : Prop :=
  let '(p, k, la) := it in
  exists pr delta z, nth_error g p = Some pr /\ pctx p delta z /\
                     sr = delta ++ firstn k (rhs pr) /\ la = hd EOFT z.

(** states (top first), their entry symbols (top first), consumed types *)
Inductive wfs : list nat -> list sym -> list nat -> Prop :=
| wfs_nil : wfs [] [] []
| wfs_cons s ss sg w X wx :
    wfs ss sg w -> trans tb (hd 0 ss) X = Some s -> der X wx -> wfs (s :: ss) (X :: sg) (w ++ wx).

Lemma wfs_length ss sg w : wfs ss sg w -> length sg = length ss.
Proof. induction 1; simpl; congruence. Qed.

Lemma wfs_ders ss sg w : wfs ss sg w -> ders (rev sg) w.
Proof.
  induction 1 as [|s ss sg w X wx Hwf IH Htr Hd]; simpl; [constructor|].
  apply ders_app; [assumption|now apply ders_single].
Qed.

Lemma wfs_split ss sg w : wfs ss sg w -> forall k, k <= length ss ->
  exists w0 ws, wfs (skipn k ss) (skipn k sg) w0 /\ ders (rev (firstn k sg)) ws /\ w = w0 ++ ws.
Proof.
  induction 1 as [|s ss sg w X wx Hwf IH Htr Hd]; intros k Hk.
  - exists [], []. destruct k; simpl; repeat split; constructor.
  - destruct k as [|k].
    + exists (w ++ wx), []. simpl. repeat split; [econstructor; eauto|constructor|now rewrite app_nil_r].
    + simpl in Hk. destruct (IH k) as (w0 & ws & H1 & H2 & ->); [lia|].
      exists w0, (ws ++ wx). simpl. repeat split; [assumption| |now rewrite app_assoc].
      apply ders_app; [assumption|now apply ders_single].
Qed.

Lemma wfs_state_lt ss sg w : wfs ss sg w -> hd 0 ss < nstates tb.
Proof.
  destruct 1 as [|s ss sg w X wx Hwf Htr Hd]; simpl; [exact (sh_pos _ _ _ SH)|].
  destruct (trans_range _ _ _ SH _ _ _ Htr) as (_ & H & _). exact H.
Qed.

Lemma kernel_nonempty s X s' : trans tb s X = Some s' -> exists p k la, In (p, S k, la) (items_of s').
Proof.
  intros Htr. destruct (valid_backward_parts g tb an VB) as (_ & _ & _ & Ht & _).
  pose proof (b_trans_P g tb an SH Ht _ _ _ Htr) as Hk.
  unfold kernel_ok in Hk. apply andb_prop in Hk as [Hk _]. apply andb_prop in Hk as [_ Hk2].
  apply existsb_exists in Hk2. destruct Hk2 as ([[p k] la] & Hin & Hne).
  destruct k as [|k]; [discriminate|]. eauto.
Qed.

Lemma state_has_item ss sg w : wfs ss sg w -> exists it, In it (items_of (hd 0 ss)).
Proof.
  destruct 1 as [|s ss sg w X wx Hwf Htr Hd]; simpl.
  - exists (0, 0, EOFT). apply (start_spec g tb an VF).
  - destruct (kernel_nonempty _ _ _ Htr) as (p & k & la & Hin). eauto.
Qed.

Lemma start_item_la s la : In (0, 0, la) (items_of s) -> la = EOFT.
Proof.
  intros Hin.
  assert (Hk : nth_error (rhs pr0) 0 = Some X0) by (now rewrite Hrhs0).
  destruct (goto_spec g tb an VF _ _ _ _ _ _ Hin Hpr0 Hk) as (s' & _ & Hin').
  assert (Hn : nth_error (rhs pr0) 1 = None) by (now rewrite Hrhs0).
  destruct (complete_spec g tb an VF _ _ _ _ _ Hin' Hpr0 Hn) as [[Hne _]|(_ & Hla & _)]; congruence.
Qed.

Lemma valid_closure sr s :
  s < nstates tb ->
  (forall p k la, In (p, S k, la) (items_of s) -> valid_item sr (p, S k, la)) ->
  (forall la, In (0, 0, la) (items_of s) -> valid_item sr (0, 0, la)) ->
  forall it, In it (items_of s) -> valid_item sr it.
Proof.
  intros Hs Hker H0.
  apply (just_list_ind g an (valid_item sr) (items_of s)) with (acc := []); auto.
  - intros q b [[p k] la] Hq Hmem (pr & delta & z & Hp & Hc & Hsr & Hla) Hj.
    destruct (just_by_P _ _ _ _ _ _ _ Hj) as (pr' & prq & Hp' & Hq' & Hk & Hb).
    rewrite Hp in Hp'. inversion Hp'; subst pr'.
    destruct (first_seq_exact g an NUL (skipn (S k) (rhs pr)) la b) as (y & Hy & Hh).
    { intros X HX. apply (PROD _ _ _ _ _ Hmem Hp). eapply In_skipn; eauto. }
    { intros n a Hn. apply (FIRSTX _ _ _ _ _ Hmem Hp). eapply In_skipn; eauto. }
    { exact Hb. }
    exists prq, (delta ++ firstn k (rhs pr)), (y ++ z). split; [assumption|]. split; [|split].
    + eapply pctx_step; eauto.
    + simpl. now rewrite app_nil_r.
    + subst la. destruct y; simpl in *; auto.
  - apply (x_closure_P g tb an); [apply XC_parts|exact Hs].
  - intros it [].
Qed.

Theorem items_valid ss sg w : wfs ss sg w ->
  forall it, In it (items_of (hd 0 ss)) -> valid_item (rev sg) it.
Proof.
  induction 1 as [|s ss sg w X wx Hwf IH Htr Hd].
  - simpl. apply valid_closure; [exact (sh_pos _ _ _ SH)| |].
    + intros p k la Hin. apply (B_init _ _ _ BW) in Hin. discriminate.
    + intros la Hin. rewrite (start_item_la _ _ Hin).
      exists pr0, [], []. repeat split; auto. constructor.
  - cbn [hd]. destruct (B_kernel _ _ _ BW _ _ _ Htr) as [Hne Hk].
    apply valid_closure.
    + destruct (trans_range _ _ _ SH _ _ _ Htr) as (_ & H & _). exact H.
    + intros p k la Hin. destruct (Hk _ _ _ Hin) as (pr & Hp & HX & Hin').
      destruct (IH _ Hin') as (pr' & delta & z & Hp' & Hc & Hsr & Hla).
      rewrite Hp in Hp'. inversion Hp'; subst pr'.
      exists pr, delta, z. repeat split; auto.
      cbn [rev]. rewrite Hsr, (firstn_snoc _ _ _ HX), app_assoc. reflexivity.
    + intros la Hin. apply (B_start0 _ _ _ BW) in Hin. contradiction.
Qed.

Lemma item_sentence ss sg w p k la pr y :
  wfs ss sg w -> In (p, k, la) (items_of (hd 0 ss)) -> nth_error g p = Some pr ->
  ders (skipn k (rhs pr)) y ->
  exists z, der X0 (w ++ y ++ z) /\ la = hd EOFT z.
Proof.
  intros Hwf Hin Hp Hy.
  destruct (items_valid _ _ _ Hwf _ Hin) as (pr' & delta & z & Hp' & Hc & Hsr & Hla).
  rewrite Hp in Hp'. inversion Hp'; subst pr'.
  pose proof (wfs_ders _ _ _ Hwf) as Hd. rewrite Hsr in Hd.
  apply ders_app_inv in Hd. destruct Hd as (x & x2 & -> & Hx & Hx2).
  exists z. split; [|assumption].
  assert (Hr : ders (rhs pr) (x2 ++ y)).
  { rewrite <- (firstn_skipn k (rhs pr)). apply ders_app; assumption. }
  pose proof (pctx_sentence _ _ _ Hc _ _ _ Hp Hx Hr) as H.
  rewrite <- !app_assoc in *. exact H.
Qed.

(** type-level versions of "viable prefix" and "legal continuation" *)
Definition viable_d (u : list nat) : Prop := exists rest, der X0 (u ++ rest).
Definition next_d (u : list nat) (a : nat) : Prop :=
  if Nat.eqb a EOFT then der X0 u else viable_d (u ++ [a]).

Theorem stack_viable ss sg w : wfs ss sg w -> viable_d w.
Proof.
  intros Hwf. destruct (state_has_item _ _ _ Hwf) as [[[p k] la] Hin].
  destruct (B_items _ _ _ BW _ _ _ _ Hin) as (pr & Hp & _).
  destruct (suffix_productive _ _ _ _ _ k Hin Hp) as [y Hy].
  destruct (item_sentence _ _ _ _ _ _ _ _ Hwf Hin Hp Hy) as (z & Hz & _).
  exists (y ++ z). exact Hz.
Qed.

Lemma complete_item_next ss sg w p la pr :
  wfs ss sg w -> In (p, length (rhs pr), la) (items_of (hd 0 ss)) -> nth_error g p = Some pr ->
  next_d w la.
Proof.
  intros Hwf Hin Hp.
  destruct (item_sentence _ _ _ _ _ _ _ [] Hwf Hin Hp) as (z & Hz & Hla).
  { rewrite skipn_all. constructor. }
  simpl in Hz. unfold next_d. destruct (Nat.eqb la EOFT) eqn:E.
  - apply Nat.eqb_eq in E. destruct z as [|c z]; [now rewrite app_nil_r in Hz|].
    simpl in Hla. exfalso. apply (NOEOF _ Hz). apply in_or_app. right. left. congruence.
  - apply Nat.eqb_neq in E. destruct z as [|c z]; [simpl in Hla; congruence|].
    simpl in Hla. subst c. exists z. now rewrite <- app_assoc.
Qed.

Theorem action_next ss sg w a act :
  wfs ss sg w -> action_at tb (hd 0 ss) a = Some (Some act) -> next_d w a.
Proof.
  intros Hwf Ha. destruct act as [s'|p|].
  - pose proof (B_shift _ _ _ BW _ _ _ Ha) as Hne.
    assert (Htr : trans tb (hd 0 ss) (T a) = Some s') by (simpl; now rewrite Ha).
    destruct (kernel_nonempty _ _ _ Htr) as (p & k & la & Hin').
    destruct (B_kernel _ _ _ BW _ _ _ Htr) as [_ Hk].
    destruct (Hk _ _ _ Hin') as (pr & Hp & HX & Hin).
    destruct (suffix_productive _ _ _ _ _ (S k) Hin Hp) as [y Hy].
    destruct (item_sentence _ _ _ _ _ _ _ ([a] ++ y) Hwf Hin Hp) as (z & Hz & _).
    { rewrite (skipn_at_nth _ _ _ HX). constructor; [constructor|assumption]. }
    unfold next_d. apply Nat.eqb_neq in Hne. rewrite Hne.
    exists (y ++ z). rewrite <- !app_assoc in *. exact Hz.
  - destruct (B_reduce _ _ _ BW _ _ _ Ha) as (_ & pr & Hp & Hin).
    eapply complete_item_next; eauto.
  - destruct (B_accept _ _ _ BW _ _ Ha) as (-> & pr & Hp & Hl & Hin).
    rewrite <- Hl in Hin. eapply complete_item_next; eauto.
Qed.

Section Run.
Variable sem : nat -> nat -> list attr -> option attr.
Variable input : list token.

Definition Inv (c : cfg) : Prop :=
  exists cells sg,
    c_st c = cells ++ [(0, ANil)] /\
    wfs (map fst cells) sg (map ttype (firstn (c_i c) input)) /\
    c_i c <= length input.

Lemma top_bottom (cells : stack) : top (cells ++ [(0, ANil)]) = Some (hd 0 (map fst cells)).
Proof. destruct cells as [|[s a] cells]; reflexivity. Qed.

Lemma Inv0 : Inv cfg0.
Proof. exists [], []. simpl. repeat split; [constructor|lia]. Qed.

Lemma step_inv c c' : Inv c -> step tb sem input c = Some c' -> Inv c'.
Proof.
  intros (cells & sg & Hst & Hwf & Hi) H.
  destruct (step_move _ _ _ _ _ H) as [s s' Ht Ha|s p pw a calls' log' s0 gz Ht Ha Hpw Hlt _ Ht0 Hg Hz];
    clear H; unfold Inv; cbn [c_st c_i];
    rewrite Hst, top_bottom in Ht; inversion Ht; subst s; clear Ht.
  - set (next := tok_at input (c_i c)) in *.
    pose proof (tok_at_in _ _ (B_shift _ _ _ BW _ _ _ Ha)) as Hnth. fold next in Hnth.
    pose proof (tok_at_lt _ _ (B_shift _ _ _ BW _ _ _ Ha)) as Hlt.
    exists ((s', ATok next) :: cells), (T (ttype next) :: sg).
    split; [now rewrite Hst|]. split; [|lia].
    rewrite (firstn_snoc _ _ _ Hnth), map_app. simpl.
    constructor; [assumption| |constructor].
    simpl. now rewrite Ha.
  - (* the item is valid for the stack, so the stack ends with the body *)
    destruct (B_reduce _ _ _ BW _ _ _ Ha) as (Hp0 & pr & Hp & Hin).
    destruct (sh_prod _ _ _ SH p pr pw Hp Hpw) as (Hnt & Hlen & _ & _).
    destruct (items_valid _ _ _ Hwf _ Hin) as (pr' & delta & z & Hp' & Hc & Hsr & Hla).
    rewrite Hp in Hp'. inversion Hp'; subst pr'. rewrite firstn_all in Hsr.
    set (n := p_len pw) in *.
    assert (Hsg : sg = rev (rhs pr) ++ rev delta).
    { rewrite <- (rev_involutive sg), Hsr, rev_app_distr. reflexivity. }
    pose proof (wfs_length _ _ _ Hwf) as Hlsg. rewrite map_length in Hlsg.
    assert (Hn : n <= length cells).
    { rewrite <- Hlsg, Hsg, app_length, rev_length. lia. }
    destruct (wfs_split _ _ _ Hwf n) as (w0 & ws & Hwf0 & Hws & Hw); [now rewrite map_length|].
    assert (Hf : rev (firstn n sg) = rhs pr).
    { rewrite Hsg. replace n with (length (rev (rhs pr))) by (rewrite rev_length; lia).
      rewrite firstn_length_app. apply rev_involutive. }
    rewrite Hf in Hws.
    rewrite Hst, skipn_app_le, top_bottom in Ht0 by exact Hn. inversion Ht0; subst s0; clear Ht0.
    exists ((Z.to_nat gz, a) :: skipn n cells), (NT (lhs pr) :: skipn n sg).
    split; [now rewrite Hst, skipn_app_le by exact Hn|]. split; [|exact Hi].
    rewrite Hw. cbn [map fst]. rewrite <- skipn_map in *.
    constructor; [assumption| |econstructor; eauto].
    simpl. unfold goto_nat. rewrite <- Hnt, Hg, Hz. reflexivity.
Qed.

Lemma steps_inv n : forall c c', Inv c -> steps tb sem input n c = Some c' -> Inv c'.
Proof. exact (steps_preserve tb sem input Inv step_inv n). Qed.

Lemma reach_Inv n c : steps tb sem input n cfg0 = Some c -> Inv c.
Proof. exact (steps_inv n cfg0 c Inv0). Qed.

Lemma inv_viable c : Inv c -> viable_d (map ttype (firstn (c_i c) input)).
Proof. intros (cells & sg & _ & Hwf & _). eapply stack_viable; eauto. Qed.

Lemma inv_action_next c s a act :
  Inv c -> top (c_st c) = Some s -> action_at tb s a = Some (Some act) ->
  next_d (map ttype (firstn (c_i c) input)) a.
Proof.
  intros (cells & sg & Hst & Hwf & _) Ht Ha. rewrite Hst, top_bottom in Ht. inversion Ht; subst s.
  eapply action_next; eauto.
Qed.

End Run.
End Viable.
