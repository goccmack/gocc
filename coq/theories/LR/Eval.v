(** Post-order evaluation of the action expressions over a parse tree (the specification side
    of C03): each explicit action is called exactly once per node of its alternative, after all
    actions of the node's children, children left to right; the call counter and the log of
    calls are threaded through.  Definitions and basic lemmas. *)
From Coq Require Import List Arith Lia Bool.
From Gocc Require Import LR.Parse LR.Trees.
Import ListNotations.

Definition calllog := list (nat * list attr).

Inductive eres (A : Type) :=
| EOk (a : A) (c : nat) (log : calllog)       (* value, next call index, log of calls so far *)
| EFail (i : nat) (log : calllog).            (* the i-th call failed; log includes it as last entry *)
Arguments EOk {A}. Arguments EFail {A}.

Section Eval.
Variable tb : tables.
Variable sem : nat -> nat -> list attr -> option attr.

(** one reduction: explicit action, or the default (first attribute; nil for an empty body) *)
Definition apply_action (p : nat) (kids : list attr) (c : nat) (log : calllog) : eres attr :=
  match nth_error (t_prods tb) p with
  | None => EFail c log
  | Some pr =>
    if p_act pr then
      match sem c p kids with
      | Some a => EOk a (S c) (log ++ [(p, kids)])
      | None => EFail c (log ++ [(p, kids)])
      end
    else EOk (match kids with [] => ANil | k :: _ => k end) c log
  end.

Fixpoint eval (t : tree) (c : nat) (log : calllog) : eres attr :=
  match t with
  | Leaf tk => EOk (ATok tk) c log          (* a terminal's attribute is the token object itself *)
  | Node p kids =>
    match (fix evals (ks : list tree) (c : nat) (log : calllog) : eres (list attr) :=
             match ks with
             | [] => EOk [] c log
             | k :: ks' =>
               match eval k c log with
               | EFail i l => EFail i l
               | EOk a c' l' =>
                 match evals ks' c' l' with
                 | EFail i l => EFail i l
                 | EOk vs c'' l'' => EOk (a :: vs) c'' l''
                 end
               end
             end) kids c log with
    | EFail i l => EFail i l
    | EOk vs c' l' => apply_action p vs c' l'
    end
  end.

Fixpoint evals (ks : list tree) (c : nat) (log : calllog) : eres (list attr) :=
  match ks with
  | [] => EOk [] c log
  | k :: ks' =>
    match eval k c log with
    | EFail i l => EFail i l
    | EOk a c' l' =>
      match evals ks' c' l' with
      | EFail i l => EFail i l
      | EOk vs c'' l'' => EOk (a :: vs) c'' l''
      end
    end
  end.

Lemma eval_node p kids c log :
  eval (Node p kids) c log =
  match evals kids c log with
  | EFail i l => EFail i l
  | EOk vs c' l' => apply_action p vs c' l'
  end.
Proof. reflexivity. Qed.

Lemma evals_app a b c log :
  evals (a ++ b) c log =
  match evals a c log with
  | EFail i l => EFail i l
  | EOk va c' l' =>
    match evals b c' l' with
    | EFail i l => EFail i l
    | EOk vb c'' l'' => EOk (va ++ vb) c'' l''
    end
  end.
Proof.
  revert c log. induction a as [|k a IH]; intros c log; cbn [evals app].
  - destruct (evals b c log); reflexivity.
  - destruct (eval k c log) as [v c' l'|]; [|reflexivity]. rewrite IH.
    destruct (evals a c' l') as [va c'' l''|]; [|reflexivity].
    destruct (evals b c'' l''); reflexivity.
Qed.

Lemma evals_length ks : forall c log vs c' l', evals ks c log = EOk vs c' l' -> length vs = length ks.
Proof.
  induction ks as [|k ks IH]; intros c log vs c' l' H; cbn [evals] in H.
  - inversion H; reflexivity.
  - destruct (eval k c log) as [v c1 l1|]; [|discriminate].
    destruct (evals ks c1 l1) as [va c2 l2|] eqn:E; [|discriminate].
    inversion H; subst. simpl. f_equal. eapply IH; eauto.
Qed.

End Eval.
