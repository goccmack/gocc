(** Extra boolean checks making the tables CANONICAL LR(1) (needed for the exact error
    position / expected set, not for soundness or completeness), and their reflection:

    - [x_null], [x_first] : the annotated nullable flags / FIRST sets are not only closed
      ([f_first]) but contained in the ones computed here by bounded iteration, every
      element of which has a derivation witness: so they are exact ([x_first] looks only at
      the nonterminals occurring in productions that appear in some item, i.e. reachable ones);
    - [x_prod]   : every symbol of a production appearing in some item (i.e. of a reachable
      production) is productive;
    - [x_noeof]  : the end-of-input terminal occurs in no right-hand side;
    - [x_recover]: a state is flagged as recovering only if it shifts the error terminal;
    - [x_closure]: every dot-0 item of a state (other than those of production 0) is justified
      by an item occurring EARLIER in the state's item list (gocc's generation order). *)
From Coq Require Import List Arith ZArith Lia Bool.
From Gocc Require Import LR.Parse LR.Validate LR.ValidateProofs LR.Derive.
Import ListNotations.

Lemma nth_map_seq {A} (f : nat -> A) nn n d : n < nn -> nth n (map f (seq 0 nn)) d = f n.
Proof.
  intros H. rewrite (nth_indep _ d (f 0)) by (now rewrite map_length, seq_length).
  rewrite map_nth, seq_nth by assumption. reflexivity.
Qed.

Lemma nth_map_seq_true (f : nat -> bool) nn n : nth n (map f (seq 0 nn)) false = true -> f n = true.
Proof.
  intros H. destruct (Nat.lt_ge_cases n nn) as [Hlt|Hge].
  - now rewrite nth_map_seq in H.
  - rewrite nth_overflow in H by (now rewrite map_length, seq_length). discriminate.
Qed.

Lemma nth_map_seq_In {A} (f : nat -> list A) nn n a : In a (nth n (map f (seq 0 nn)) []) -> In a (f n).
Proof.
  intros H. destruct (Nat.lt_ge_cases n nn) as [Hlt|Hge].
  - now rewrite nth_map_seq in H.
  - rewrite nth_overflow in H by (now rewrite map_length, seq_length). destruct H.
Qed.

Definition dedup (l : list nat) : list nat :=
  fold_right (fun a acc => if mem_nat a acc then acc else a :: acc) [] l.

Lemma dedup_In a l : In a (dedup l) -> In a l.
Proof.
  induction l as [|x l IH]; simpl; [auto|].
  destruct (mem_nat x (dedup l)); simpl; intuition.
Qed.

Section X.
Variable g : grammar.
Variable tb : tables.
Variable an : annot.

Notation der := (der g).
Notation ders := (ders g).

(** * Flags computed by iteration: nullable ([tf = false]) and productive ([tf = true]) *)
Definition flag_rhs (tf : bool) (N : list bool) (gamma : list sym) : bool :=
  forallb (fun X => match X with T _ => tf | NT m => nth m N false end) gamma.

Definition flag_step (tf : bool) (nn : nat) (N : list bool) : list bool :=
  map (fun n => existsb (fun pr => Nat.eqb (lhs pr) n && flag_rhs tf N (rhs pr)) g) (seq 0 nn).

Fixpoint flag_iter (tf : bool) (nn k : nat) : list bool :=
  match k with O => [] | S k' => flag_step tf nn (flag_iter tf nn k') end.

Lemma flag_iter_sound (tf : bool) (Q : sym -> Prop) nn :
  (forall a, tf = true -> Q (T a)) ->
  (forall p pr, nth_error g p = Some pr -> (forall X, In X (rhs pr) -> Q X) -> Q (NT (lhs pr))) ->
  forall k n, nth n (flag_iter tf nn k) false = true -> Q (NT n).
Proof.
  intros HT HN. induction k as [|k IH]; intros n H; simpl in H.
  - destruct n; discriminate.
  - unfold flag_step in H. apply nth_map_seq_true in H.
    apply existsb_exists in H. destruct H as (pr & Hin & H).
    apply andb_true_iff in H. destruct H as [Hl Hr]. apply Nat.eqb_eq in Hl. subst n.
    destruct (In_nth_error _ _ Hin) as [p Hp]. apply (HN p pr Hp).
    intros X HX. unfold flag_rhs in Hr. rewrite forallb_forall in Hr. specialize (Hr X HX).
    destruct X as [a|m]; [apply HT; exact Hr|apply IH; exact Hr].
Qed.

(** Any number of rounds of [flag_iter] / [first_iter] is sound, which is all that is proved here;
    [length g] rounds are what lets the checks pass on the flags and FIRST sets gocc computes. *)
Definition x_null : bool :=
  let nn := length (a_nullable an) in
  let N := flag_iter false nn (length g) in
  forallb (fun n => implb (nullable_nt an n) (nth n N false)) (seq 0 nn).

Definition prod_flags : list bool := flag_iter true (nnts tb) (length g).

(** a boolean over the productions occurring in the items of the annotation *)
Definition forall_item_prods (f : prod -> bool) : bool :=
  forall_states tb (fun s => forallb (fun it => match it with (p, _, _) =>
    match nth_error g p with Some pr => f pr | None => false end end) (items_of an s)).

Lemma forall_item_prods_P f : forall_item_prods f = true ->
  forall s p k la pr, s < nstates tb -> In (p, k, la) (items_of an s) -> nth_error g p = Some pr -> f pr = true.
Proof.
  intros H s p k la pr Hs Hin Hp. pose proof (forall_states_P tb _ H s Hs) as H1. cbv beta in H1.
  rewrite forallb_forall in H1. specialize (H1 _ Hin). cbv beta iota in H1. now rewrite Hp in H1.
Qed.

Definition x_prod : bool := let Pf := prod_flags in forall_item_prods (fun pr => flag_rhs true Pf (rhs pr)).

Lemma x_null_P : x_null = true -> forall n, nullable_nt an n = true -> der (NT n) [].
Proof.
  unfold x_null. intros H n Hn. rewrite forallb_forall in H.
  assert (Hlt : n < length (a_nullable an)).
  { destruct (Nat.lt_ge_cases n (length (a_nullable an))) as [|Hge]; [assumption|].
    unfold nullable_nt in Hn. rewrite nth_overflow in Hn by assumption. discriminate. }
  specialize (H n). rewrite Hn in H. simpl in H.
  apply (flag_iter_sound false (fun X => der X []) (length (a_nullable an))) with (k := length g).
  - discriminate.
  - intros p pr Hp HX. econstructor; [exact Hp|]. apply ders_all_nil. exact HX.
  - apply H. apply in_seq. lia.
Qed.

Lemma prod_flags_P n : nth n prod_flags false = true -> exists u, der (NT n) u.
Proof.
  apply (flag_iter_sound true (fun X => exists u, der X u) (nnts tb)).
  - intros a _. exists [a]. constructor.
  - intros p pr' Hp HX'. destruct (ders_all g _ HX') as [u Hu]. exists u. econstructor; eauto.
Qed.

Lemma flag_rhs_prod_P gamma : flag_rhs true prod_flags gamma = true -> forall X, In X gamma -> exists u, der X u.
Proof.
  unfold flag_rhs. rewrite forallb_forall. intros H X HX. specialize (H X HX).
  destruct X as [a|m]; [exists [a]; constructor|]. now apply prod_flags_P.
Qed.

Lemma x_prod_P : x_prod = true ->
  forall s p k la pr, s < nstates tb -> In (p, k, la) (items_of an s) -> nth_error g p = Some pr ->
  forall X, In X (rhs pr) -> exists u, der X u.
Proof.
  intros H s p k la pr Hs Hin Hp. apply flag_rhs_prod_P.
  eapply (forall_item_prods_P _ H); eauto.
Qed.

Fixpoint first_rhs (F : list (list nat)) (gamma : list sym) : list nat :=
  match gamma with
  | [] => []
  | T a :: _ => [a]
  | NT m :: rest => nth m F [] ++ (if nullable_nt an m then first_rhs F rest else [])
  end.

Definition first_step (Pf : list bool) (nn : nat) (F : list (list nat)) : list (list nat) :=
  map (fun n => dedup (flat_map (fun pr => if Nat.eqb (lhs pr) n && flag_rhs true Pf (rhs pr)
                                            then first_rhs F (rhs pr) else []) g))
      (seq 0 nn).

Fixpoint first_iter (Pf : list bool) (nn k : nat) : list (list nat) :=
  match k with O => [] | S k' => first_step Pf nn (first_iter Pf nn k') end.

Definition first_sets : list (list nat) := first_iter prod_flags (length (a_first an)) (length g).

Definition x_first : bool :=
  let F := first_sets in
  forall_item_prods (fun pr =>
    forallb (fun X => match X with
                      | T _ => true
                      | NT n => forallb (fun a => mem_nat a (nth n F [])) (first_nt an n)
                      end) (rhs pr)).

Section FirstSound.
Hypothesis NUL : forall n, nullable_nt an n = true -> der (NT n) [].

Lemma first_rhs_sound F :
  (forall m a, In a (nth m F []) -> exists u, der (NT m) (a :: u)) ->
  forall gamma a, (forall X, In X gamma -> exists u, der X u) -> In a (first_rhs F gamma) ->
  exists u, ders gamma (a :: u).
Proof.
  intros HF. induction gamma as [|X gamma IH]; intros a Hp Hin; simpl in Hin; [destruct Hin|].
  assert (Hrest : exists v, ders gamma v).
  { apply ders_all. intros Y HY. apply Hp. now right. }
  destruct X as [b|m].
  - destruct Hin as [->|[]]. destruct Hrest as [v Hv]. exists v.
    change (a :: v) with ([a] ++ v). constructor; [constructor|assumption].
  - apply in_app_or in Hin. destruct Hin as [Hin|Hin].
    + destruct (HF _ _ Hin) as [u Hu]. destruct Hrest as [v Hv]. exists (u ++ v).
      change (a :: u ++ v) with ((a :: u) ++ v). constructor; assumption.
    + destruct (nullable_nt an m) eqn:Hn; [|destruct Hin].
      destruct (IH a) as [u Hu]; [intros Y HY; apply Hp; now right|assumption|].
      exists u. change (a :: u) with ([] ++ a :: u). constructor; [apply NUL; assumption|assumption].
Qed.

Lemma first_iter_sound nn : forall k n a, In a (nth n (first_iter prod_flags nn k) []) -> exists u, der (NT n) (a :: u).
Proof.
  induction k as [|k IH]; intros n a H; simpl in H.
  - destruct n; destruct H.
  - unfold first_step in H. apply nth_map_seq_In in H. apply dedup_In in H.
    apply in_flat_map in H. destruct H as (pr & Hpr & H).
    destruct (Nat.eqb (lhs pr) n && flag_rhs true prod_flags (rhs pr)) eqn:E; [|destruct H].
    apply andb_true_iff in E. destruct E as [E Ef]. apply Nat.eqb_eq in E. subst n.
    destruct (first_rhs_sound _ IH (rhs pr) a) as [u Hu]; [now apply flag_rhs_prod_P|assumption|].
    destruct (In_nth_error _ _ Hpr) as [p Hp]. exists u. econstructor; eauto.
Qed.

Lemma x_first_P : x_first = true ->
  forall s p k la pr, s < nstates tb -> In (p, k, la) (items_of an s) -> nth_error g p = Some pr ->
  forall n a, In (NT n) (rhs pr) -> In a (first_nt an n) -> exists u, der (NT n) (a :: u).
Proof.
  intros H s p k la pr Hs Hin Hp n a Hn Ha.
  pose proof (forall_item_prods_P _ H _ _ _ _ _ Hs Hin Hp) as Hf. cbv beta in Hf.
  rewrite forallb_forall in Hf. specialize (Hf _ Hn). cbv beta iota in Hf.
  rewrite forallb_forall in Hf. specialize (Hf _ Ha).
  eapply first_iter_sound. apply mem_nat_In. exact Hf.
Qed.

Lemma first_seq_exact :
  forall beta la b,
  (forall X, In X beta -> exists u, der X u) ->
  (forall n a, In (NT n) beta -> In a (first_nt an n) -> exists u, der (NT n) (a :: u)) ->
  In b (first_seq an beta la) -> exists y, ders beta y /\ hd la y = b.
Proof.
  induction beta as [|X beta IH]; intros la b Hp HF Hin; simpl in Hin.
  - destruct Hin as [->|[]]. exists []. split; [constructor|reflexivity].
  - assert (Hrest : exists v, ders beta v).
    { apply ders_all. intros Y HY. apply Hp. now right. }
    apply in_app_or in Hin. destruct Hin as [Hin|Hin].
    + destruct X as [a|m]; simpl in Hin.
      * destruct Hin as [->|[]]. destruct Hrest as [v Hv]. exists ([b] ++ v).
        split; [constructor; [constructor|assumption]|reflexivity].
      * destruct (HF m b) as [u Hu]; [now left|assumption|]. destruct Hrest as [v Hv]. exists ((b :: u) ++ v).
        split; [constructor; assumption|reflexivity].
    + destruct (nullable_sym an X) eqn:Hn; [|destruct Hin].
      destruct X as [a|m]; [discriminate|]. simpl in Hn.
      destruct (IH la b) as (y & Hy & Hh).
      { intros Y HY; apply Hp; now right. }
      { intros n a HY. apply HF. now right. }
      { assumption. }
      exists ([] ++ y). split; [constructor; [apply NUL; assumption|assumption]|exact Hh].
Qed.

End FirstSound.

Definition x_noeof : bool :=
  forallb (fun pr => forallb (fun X => match X with T a => negb (Nat.eqb a EOFT) | NT _ => true end) (rhs pr)) g.

Lemma x_noeof_P : x_noeof = true ->
  (forall X u, der X u -> X <> T EOFT -> ~ In EOFT u) /\
  (forall gamma u, ders gamma u -> ~ In (T EOFT) gamma -> ~ In EOFT u).
Proof.
  intros H. unfold x_noeof in H. rewrite forallb_forall in H. apply der_ders_min.
  - intros a Hne [Hin|[]]. apply Hne. congruence.
  - intros p pr u Hp _ IH _. apply IH. intros Hin.
    specialize (H _ (nth_error_In _ _ Hp)). rewrite forallb_forall in H.
    specialize (H _ Hin). simpl in H. discriminate.
  - intros _ [].
  - intros X gamma u v _ IH1 _ IH2 Hni Hin. apply in_app_or in Hin. destruct Hin as [Hin|Hin].
    + apply (IH1 (fun E => Hni (or_introl E)) Hin).
    + apply (IH2 (fun E => Hni (or_intror E)) Hin).
Qed.

Definition x_recover : bool :=
  forallb (fun r => implb (s_recover r)
                          (match nth_error (s_actions r) (t_err tb) with
                           | Some (Some (Shift _)) => true | _ => false end)) (t_states tb).

Lemma x_recover_P : x_recover = true ->
  (forall s s', action_at tb s (t_err tb) <> Some (Some (Shift s'))) ->
  forall s, recover_at tb s = false.
Proof.
  unfold x_recover. intros H NES s. rewrite forallb_forall in H.
  unfold recover_at. destruct (nth_error (t_states tb) s) as [r|] eqn:E; [|reflexivity].
  specialize (H _ (nth_error_In _ _ E)). destruct (s_recover r); [|reflexivity]. simpl in H.
  specialize (NES s). unfold action_at in NES. rewrite E in NES.
  destruct (nth_error (s_actions r) (t_err tb)) as [[[s'| |]|]|]; try discriminate.
  exfalso. eapply NES. reflexivity.
Qed.

Lemma find_recover_none : (forall s, recover_at tb s = false) ->
  forall st k, find_recover tb st k = None.
Proof.
  intros H. induction st as [|[s a] st IH]; intros k; simpl; [reflexivity|].
  rewrite H. apply IH.
Qed.

Definition just_by (q b : nat) (it : item) : bool :=
  let '(p, k, la) := it in
  match nth_error g p, nth_error g q with
  | Some pr, Some prq =>
    match nth_error (rhs pr) k with
    | Some (NT B) => Nat.eqb (lhs prq) B && mem_nat b (first_seq an (skipn (S k) (rhs pr)) la)
    | _ => false
    end
  | _, _ => false
  end.

Fixpoint just_list (earlier rest : list item) : bool :=
  match rest with
  | [] => true
  | it :: rest' =>
    (let '(q, k, b) := it in
     match k with
     | O => Nat.eqb q 0 || existsb (just_by q b) earlier
     | S _ => true
     end) && just_list (it :: earlier) rest'
  end.

Definition x_closure : bool := forall_states tb (fun s => just_list [] (items_of an s)).

Lemma just_by_P q b p k la : just_by q b (p, k, la) = true ->
  exists pr prq, nth_error g p = Some pr /\ nth_error g q = Some prq /\
                 nth_error (rhs pr) k = Some (NT (lhs prq)) /\
                 In b (first_seq an (skipn (S k) (rhs pr)) la).
Proof.
  unfold just_by. destruct (nth_error g p) as [pr|]; [|discriminate].
  destruct (nth_error g q) as [prq|]; [|discriminate].
  destruct (nth_error (rhs pr) k) as [[a|B]|] eqn:Ek; try discriminate.
  intros H. apply andb_true_iff in H. destruct H as [H1 H2]. apply Nat.eqb_eq in H1. subst B.
  apply mem_nat_In in H2. exists pr, prq. repeat split; auto.
Qed.

Lemma just_list_ind (P : item -> Prop) (all : list item) :
  (forall q b it, q <> 0 -> In it all -> P it -> just_by q b it = true -> P (q, 0, b)) ->
  forall rest acc, just_list acc rest = true ->
    (forall it, In it acc -> In it all /\ P it) ->
    (forall it, In it rest -> In it all) ->
    (forall p k la, In (p, S k, la) rest -> P (p, S k, la)) ->
    (forall la, In (0, 0, la) rest -> P (0, 0, la)) ->
    forall it, In it rest -> P it.
Proof.
  intros Hj. induction rest as [|[[q k] b] rest IH]; intros acc H Hacc Hall Hker H0 it Hin; [destruct Hin|].
  cbn [just_list] in H. apply andb_true_iff in H. destruct H as [H1 H2].
  assert (Hhd : P (q, k, b)).
  { destruct k as [|k]; [|apply Hker; now left].
    apply orb_true_iff in H1. destruct H1 as [H1|H1].
    - apply Nat.eqb_eq in H1. subst q. apply H0. now left.
    - destruct (Nat.eq_dec q 0) as [->|Hne]; [apply H0; now left|].
      apply existsb_exists in H1. destruct H1 as (it' & Hin' & Hjb).
      destruct (Hacc _ Hin') as [Ha Hp]. eapply Hj; eauto. }
  destruct Hin as [<-|Hin]; [exact Hhd|].
  apply (IH ((q, k, b) :: acc)); auto.
  - intros it' [<-|Hi]; [split; [apply Hall; now left|exact Hhd]|auto].
  - intros it' Hi. apply Hall. now right.
  - intros p' k' la' Hi. apply Hker. now right.
  - intros la' Hi. apply H0. now right.
Qed.

Lemma x_closure_P : x_closure = true -> forall s, s < nstates tb -> just_list [] (items_of an s) = true.
Proof. exact (forall_states_P tb _). Qed.

Definition x_checks : bool := x_null && x_first && x_prod && x_noeof && x_recover && x_closure.

End X.
