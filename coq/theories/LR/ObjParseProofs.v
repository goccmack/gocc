(** The parser OBJECT of [LR/ObjParse.v] (two Go slices whose backing arrays survive reset, the stale
    look-ahead) refines the list model of [LR/Parse.v]; what earlier calls left in the object is irrelevant.
    A seeded bug in reset (attribute slice re-allocated with length 100) is caught. *)
From Coq Require Import List ZArith Bool Arith Lia.
From Gocc Require Import LR.Parse LR.ValidateProofs LR.Steps LR.ObjParse.
Import ListNotations.

Definition o_inv (o : pobj) : Prop :=
  len (o_state o) = len (o_attrib o) /\ len (o_state o) <= length (arr (o_state o)) /\ len (o_attrib o) <= length (arr (o_attrib o)).
Definition o_abs (o : pobj) : stack := rev (combine (s_view (o_state o)) (s_view (o_attrib o))).

Lemma set_nth_length {A} i (x : A) l : length (set_nth i x l) = length l.
Proof. revert i; induction l; intros [|i]; simpl; auto. Qed.

Lemma firstn_S_set_nth {A} (x : A) l i : i < length l -> firstn (S i) (set_nth i x l) = firstn i l ++ [x].
Proof.
  revert i; induction l; intros i H; simpl in H; [inversion H|].
  destruct i; [reflexivity|].
  change (a :: firstn (S i) (set_nth i x l) = a :: (firstn i l ++ [x])).
  f_equal. apply IHl, Nat.succ_lt_mono, H.
Qed.

Lemma nth_error_firstn_lt {A} (l : list A) n i : i < n -> nth_error (firstn n l) i = nth_error l i.
Proof.
  revert n i; induction l; intros [|n] [|i] H; simpl; auto; try (inversion H; fail).
  apply IHl, Nat.succ_lt_mono, H.
Qed.

Lemma nth_error_firstn_ge {A} (l : list A) n i : n <= i -> nth_error (firstn n l) i = None.
Proof. intros H. apply nth_error_None. rewrite firstn_length. exact (Nat.le_trans _ _ _ (Nat.le_min_l _ _) H). Qed.

Lemma combine_app_eq {A B} (l1 l2 : list A) (m1 m2 : list B) :
  length l1 = length m1 -> combine (l1 ++ l2) (m1 ++ m2) = combine l1 m1 ++ combine l2 m2.
Proof.
  revert m1; induction l1; intros [|b m1] H; simpl in *; try discriminate; auto.
  f_equal. apply IHl1. now injection H.
Qed.

Lemma map_fst_combine_eq {A B} (l : list A) (m : list B) : length l = length m -> map fst (combine l m) = l.
Proof. revert m; induction l; intros [|b m] H; simpl in *; try discriminate; auto. f_equal. apply IHl. now injection H. Qed.

Lemma map_snd_combine_eq {A B} (l : list A) (m : list B) : length l = length m -> map snd (combine l m) = m.
Proof. revert m; induction l; intros [|b m] H; simpl in *; try discriminate; auto. f_equal. apply IHl. now injection H. Qed.

Section SliceLemmas.
Context {A : Type}.
Definition wf (s : slice A) : Prop := len s <= length (arr s).

Lemma s_view_length (s : slice A) : wf s -> length (s_view s) = len s.
Proof. unfold wf, s_view; intros H; rewrite firstn_length; exact (Nat.min_l _ _ H). Qed.

Lemma s_view_reset (s : slice A) : s_view (s_reset s) = [].
Proof. reflexivity. Qed.

Lemma s_reset_wf (s : slice A) : wf (s_reset s).
Proof. apply Nat.le_0_l. Qed.

Lemma s_append_len g (s : slice A) x : len (s_append g s x) = S (len s).
Proof. unfold s_append; destruct (_ <? _); reflexivity. Qed.

Lemma s_append_wf g (s : slice A) x : wf s -> wf (s_append g s x).
Proof.
  unfold wf, s_append; intros H. destruct (len s <? length (arr s)) eqn:E; simpl.
  - apply Nat.ltb_lt in E. rewrite set_nth_length. exact E.
  - rewrite app_length, firstn_length, (Nat.min_l _ _ H); simpl. rewrite Nat.add_succ_r. apply le_n_S, Nat.le_add_r.
Qed.

Lemma s_append_view g (s : slice A) x : wf s -> s_view (s_append g s x) = s_view s ++ [x].
Proof.
  unfold wf, s_append, s_view; intros H. destruct (len s <? length (arr s)) eqn:E; simpl len; simpl arr.
  - apply Nat.ltb_lt in E. apply firstn_S_set_nth; auto.
  - rewrite firstn_app, firstn_firstn, firstn_length, (Nat.min_l _ _ H), (Nat.min_r _ _ (Nat.le_succ_diag_r _)).
    rewrite Nat.sub_succ_l, Nat.sub_diag by apply le_n. reflexivity.
Qed.

Lemma s_index_view (s : slice A) i : s_index s i = nth_error (s_view s) i.
Proof.
  unfold s_index, s_view. destruct (i <? len s) eqn:E.
  - apply Nat.ltb_lt in E. symmetry. apply nth_error_firstn_lt; auto.
  - apply Nat.ltb_ge in E. symmetry. apply nth_error_firstn_ge; auto.
Qed.
End SliceLemmas.

Definition o_cells (o : pobj) : list (nat * attr) := combine (s_view (o_state o)) (s_view (o_attrib o)).

Definition o_cut (o : pobj) (lo : nat) : pobj :=
  {| o_state := {| arr := arr (o_state o); len := lo |};
     o_attrib := {| arr := arr (o_attrib o); len := lo |};
     o_next := o_next o |}.

Lemma o_inv_wf o : o_inv o -> wf (o_state o) /\ wf (o_attrib o).
Proof. unfold o_inv, wf; intuition. Qed.

Lemma o_views_length o : o_inv o ->
  length (s_view (o_state o)) = len (o_state o) /\ length (s_view (o_attrib o)) = len (o_state o).
Proof.
  intros H. destruct (o_inv_wf o H) as [H1 H2]. destruct H as [E _].
  rewrite (s_view_length _ H1), (s_view_length _ H2). auto.
Qed.

Lemma o_cells_length o : o_inv o -> length (o_cells o) = len (o_state o).
Proof. intros H. destruct (o_views_length o H) as [H1 H2]. unfold o_cells. rewrite combine_length, H1, H2. apply Nat.min_id. Qed.

Lemma o_abs_cells o : o_abs o = rev (o_cells o).
Proof. reflexivity. Qed.

Lemma o_abs_length o : o_inv o -> length (o_abs o) = len (o_state o).
Proof. intros H. rewrite o_abs_cells, rev_length. apply (o_cells_length o H). Qed.

Lemma o_cells_fst o : o_inv o -> map fst (o_cells o) = s_view (o_state o).
Proof. intros H. destruct (o_views_length o H). apply map_fst_combine_eq. congruence. Qed.

Lemma o_cells_snd o : o_inv o -> map snd (o_cells o) = s_view (o_attrib o).
Proof. intros H. destruct (o_views_length o H). apply map_snd_combine_eq. congruence. Qed.

Lemma set_next_abs o t : o_abs (set_next o t) = o_abs o.
Proof. reflexivity. Qed.

Lemma set_next_inv o t : o_inv o -> o_inv (set_next o t).
Proof. intros H; exact H. Qed.

Lemma k_reset_inv o : o_inv (k_reset o).
Proof. repeat split; apply Nat.le_0_l. Qed.

Lemma k_reset_abs o : o_abs (k_reset o) = [].
Proof. reflexivity. Qed.

Section ObjLemmas.
Variable grow_s : nat -> list nat.
Variable grow_a : nat -> list attr.
Variable tb : tables.
Variable sem : nat -> nat -> list attr -> option attr.
Variable input : list token.

Lemma k_push_inv o s a : o_inv o -> o_inv (k_push grow_s grow_a o s a).
Proof.
  intros H. destruct (o_inv_wf o H) as [H1 H2]. destruct H as [E _].
  unfold o_inv; simpl. rewrite !s_append_len.
  split; [f_equal; exact E|]. split.
  - rewrite <- (s_append_len grow_s (o_state o) s). apply s_append_wf; auto.
  - rewrite <- (s_append_len grow_a (o_attrib o) a). apply s_append_wf; auto.
Qed.

Lemma k_push_abs o s a : o_inv o -> o_abs (k_push grow_s grow_a o s a) = (s, a) :: o_abs o.
Proof.
  intros H. destruct (o_inv_wf o H) as [H1 H2]. destruct (o_views_length o H) as [L1 L2].
  unfold o_abs; simpl. rewrite !s_append_view by auto.
  rewrite combine_app_eq by congruence. simpl. rewrite rev_app_distr. reflexivity.
Qed.

Lemma k_push_next o s a : o_next (k_push grow_s grow_a o s a) = o_next o.
Proof. reflexivity. Qed.

Lemma o_cut_inv o lo : o_inv o -> lo <= len (o_state o) -> o_inv (o_cut o lo).
Proof.
  unfold o_inv; simpl. intros (E & H1 & H2) H. repeat split; [exact (Nat.le_trans _ _ _ H H1)|].
  rewrite E in H. exact (Nat.le_trans _ _ _ H H2).
Qed.

Lemma o_cut_cells o lo : o_inv o -> lo <= len (o_state o) -> o_cells (o_cut o lo) = firstn lo (o_cells o).
Proof.
  intros [E _] Hlo. unfold o_cells, o_cut, s_view; simpl.
  rewrite combine_firstn, !firstn_firstn, <- E, (Nat.min_l _ _ Hlo). reflexivity.
Qed.

Lemma o_cut_next o lo : o_next (o_cut o lo) = o_next o.
Proof. reflexivity. Qed.

Lemma o_last_cell o i : o_inv o -> len (o_state o) = S i ->
  exists s a, nth_error (o_cells o) i = Some (s, a) /\ o_abs o = (s, a) :: rev (firstn i (o_cells o)).
Proof.
  intros H Hi. pose proof (o_cells_length o H) as HL.
  destruct (nth_error (o_cells o) i) as [[s a]|] eqn:E.
  - exists s, a. split; auto. pose proof (firstn_snoc _ _ _ E) as F.
    rewrite firstn_all2 in F by (rewrite HL, Hi; apply le_n).
    rewrite o_abs_cells. transitivity (rev (firstn i (o_cells o) ++ [(s, a)])); [f_equal; exact F|apply rev_unit].
  - apply nth_error_None in E. rewrite HL, Hi in E. destruct (Nat.nle_succ_diag_l _ E).
Qed.

Lemma k_peek_cell o i s a : o_inv o -> nth_error (o_cells o) i = Some (s, a) -> k_peek o i = Some s.
Proof.
  intros H E. unfold k_peek. rewrite s_index_view, <- (o_cells_fst o H).
  apply (map_nth_error fst _ _ E).
Qed.

Lemma k_top_abs o : o_inv o -> k_top o = top (o_abs o).
Proof.
  intros H. unfold k_top. destruct (len (o_state o)) as [|i] eqn:Hi.
  - pose proof (o_abs_length o H) as HL. rewrite Hi in HL. destruct (o_abs o); [reflexivity|discriminate].
  - destruct (o_last_cell o i H Hi) as (s & a & E & Ea). rewrite Ea. simpl.
    apply (k_peek_cell o i s a H E).
Qed.

Lemma k_popN_spec o n : o_inv o ->
  k_popN o n = if length (o_abs o) <? n then None
               else Some (rev (map snd (firstn n (o_abs o))), o_cut o (len (o_state o) - n)).
Proof.
  intros H. rewrite (o_abs_length o H). unfold k_popN.
  destruct (len (o_state o) <? n) eqn:E; [reflexivity|]. apply Nat.ltb_ge in E.
  pose proof (o_cells_length o H) as HL. pose proof (o_cells_snd o H) as HS.
  destruct H as (E1 & H1 & H2).
  replace (length (arr (o_attrib o)) <? len (o_state o)) with false by (symmetry; apply Nat.ltb_ge; rewrite E1; exact H2).
  unfold o_cut. f_equal. f_equal.
  rewrite o_abs_cells, firstn_rev, map_rev, rev_involutive, HL, <- skipn_map, HS.
  unfold s_view. rewrite skipn_firstn_comm. rewrite <- E1. f_equal. lia.
Qed.

Lemma k_popN_abs o n : o_inv o ->
  o_inv (o_cut o (len (o_state o) - n)) /\ o_abs (o_cut o (len (o_state o) - n)) = skipn n (o_abs o).
Proof.
  intros H. pose proof (Nat.le_sub_l (len (o_state o)) n) as Hlo. split.
  - apply o_cut_inv; assumption.
  - rewrite !o_abs_cells, (o_cut_cells o _ H Hlo), skipn_rev, (o_cells_length o H). reflexivity.
Qed.

(** ** firstRecoveryState *)
Definition frs_of (rs : nat) (r : option nat) : option (nat * bool) :=
  match r with Some j => Some (rs - j, true) | None => Some (0, false) end.

Lemma k_frs_loop_spec o : o_inv o -> forall rs s a, nth_error (o_cells o) rs = Some (s, a) ->
  k_frs_loop tb o rs (recover_at tb s) = frs_of rs (find_recover tb (rev (firstn (S rs) (o_cells o))) 0).
Proof.
  intros H. induction rs as [|r IH]; intros s a E.
  - rewrite (firstn_snoc _ _ _ E). simpl. destruct (recover_at tb s); reflexivity.
  - rewrite (firstn_snoc _ _ _ E), rev_app_distr.
    change (rev [(s, a)] ++ rev (firstn (S r) (o_cells o))) with ((s, a) :: rev (firstn (S r) (o_cells o))).
    cbn [k_frs_loop find_recover]. destruct (recover_at tb s) eqn:Er; [reflexivity|].
    destruct (nth_error (o_cells o) r) as [[s' a']|] eqn:E'.
    + rewrite (k_peek_cell o r s' a' H E'). rewrite (IH s' a' eq_refl).
      rewrite find_recover_shift.
      destruct (find_recover tb (rev (firstn (S r) (o_cells o))) 0); reflexivity.
    + apply nth_error_None in E'. assert (nth_error (o_cells o) (S r) <> None) by congruence.
      apply nth_error_Some in H0. lia.
Qed.

Lemma k_first_recovery_spec o : o_inv o ->
  k_first_recovery tb o =
    match len (o_state o) with
    | O => None
    | S i => frs_of i (find_recover tb (o_abs o) 0)
    end.
Proof.
  intros H. unfold k_first_recovery, k_top. destruct (len (o_state o)) as [|i] eqn:Hi; [reflexivity|].
  destruct (o_last_cell o i H Hi) as (s & a & E & Ea).
  fold (k_peek o i). rewrite (k_peek_cell o i s a H E).
  replace (S i - 1) with i by apply eq_sym, Nat.sub_0_r.
  rewrite (k_frs_loop_spec o H i s a E), firstn_all2 by (rewrite (o_cells_length o H), Hi; apply le_n).
  reflexivity.
Qed.

(** ** Error / newError *)
Definition rec_rel (kr : krecovery) (r : recovery) : Prop :=
  match kr, r with
  | KRec o pos, Recovered st nx pos' => o_inv o /\ o_abs o = st /\ o_next o = nx /\ pos = pos'
  | KNot o pos, NotRecovered st pos' => o_inv o /\ o_abs o = st /\ pos = pos'
  | KPanic c, RecPanic c' => c = c'
  | KFuel, RecFuel => True
  | _, _ => False
  end.

Lemma k_mk_error_abs a t o : o_inv o -> k_mk_error tb a t o = mk_error tb a t (o_abs o).
Proof. intros H. unfold k_mk_error, mk_error. rewrite (k_top_abs o H). reflexivity. Qed.

(** popNonRecoveryStates: what it removes and what it leaves *)
Lemma k_pop_nonrecovery o : o_inv o ->
  match k_first_recovery tb o with
  | None => o_abs o = []
  | Some (rs, ok) => exists removed o1,
      (if ok then k_popN o (len (o_state o) - 1 - rs) else Some ([], o)) = Some (removed, o1) /\ o_inv o1 /\
      match find_recover tb (o_abs o) 0 with
      | Some k => (rev (map snd (firstn k (o_abs o))), skipn k (o_abs o))
      | None => ([], o_abs o)
      end = (removed, o_abs o1)
  end.
Proof.
  intros H. rewrite (k_first_recovery_spec o H). pose proof (o_abs_length o H) as HL.
  destruct (len (o_state o)) as [|i] eqn:Hi.
  - destruct (o_abs o); [reflexivity|discriminate].
  - destruct (find_recover tb (o_abs o) 0) as [j|] eqn:Ef; unfold frs_of.
    + pose proof (find_recover_lt _ _ _ _ Ef) as Hj.
      replace (S i - 1 - (i - j)) with j by lia.
      rewrite (k_popN_spec o j H). replace (length (o_abs o) <? j) with false by (symmetry; apply Nat.ltb_ge; lia).
      destruct (k_popN_abs o j H) as [H1 A1].
      eexists _, _. split; [reflexivity|]. split; [exact H1|]. rewrite A1. reflexivity.
    + exists [], o. auto.
Qed.

Lemma k_error_step_spec fuel o pos : o_inv o ->
  rec_rel (k_error_step grow_s grow_a tb input fuel o pos) (error_step tb input fuel (o_abs o) (o_next o) pos).
Proof.
  intros H. unfold k_error_step, error_step. pose proof (k_pop_nonrecovery o H) as P.
  destruct (k_first_recovery tb o) as [[rs ok]|]; [|rewrite P; reflexivity].
  destruct P as (removed & o1 & -> & H1 & ->). rewrite (k_top_abs o1 H1).
  destruct (top (o_abs o1)) as [s1|]; [|reflexivity].
  cbv zeta.
  destruct (action_at tb s1 (t_err tb)) as [[[s2|p|]|]|]; try (simpl; auto; fail).
  destruct (t_gate tb && negb (recover_at tb s1)); [simpl; auto|].
  set (ea := AErr (o_next o) removed (expected tb s1)).
  pose proof (k_push_inv o1 s2 ea H1) as H2. pose proof (k_push_abs o1 s2 ea H1) as A2.
  rewrite (k_top_abs _ H2), A2. simpl top.
  cbv beta iota.
  destruct (skip_input tb input fuel s2 (o_next o) pos) as [[[[|] nx] ps]|]; simpl; auto.
Qed.


(** a result with the object the call leaves, against a result of the list model; as a definition, so that the
    body of [k_run] stands once in the goals below, not twice *)
Definition refines (p : result * pobj) (r : result) : Prop := fst p = r /\ o_inv (snd p).

Lemma refines_ret r o : o_inv o -> refines (r, o) r.
Proof. intros H. split; [reflexivity|exact H]. Qed.

Theorem k_run_refines : forall fuel o pos calls log, o_inv o ->
  refines (k_run grow_s grow_a tb sem input fuel o pos calls log)
          (run tb sem input fuel (o_abs o) (o_next o) pos calls log).
Proof.
  induction fuel as [|f IH]; intros o pos calls log H; [apply refines_ret, H|].
  cbn [k_run run]. rewrite (k_top_abs o H).
  destruct (top (o_abs o)) as [s|] eqn:Et; [|apply refines_ret, H].
  destruct (action_at tb s (ttype (o_next o))) as [[[s'|p|]|]|]; [| | | |apply refines_ret, H].
  - (* shift *)
    rewrite <- (k_push_abs o s' (ATok (o_next o)) H). apply IH, set_next_inv, k_push_inv, H.
  - (* reduce *)
    destruct (nth_error (t_prods tb) p) as [pr|]; [|apply refines_ret, H].
    rewrite (k_popN_spec o (p_len pr) H).
    destruct (length (o_abs o) <? p_len pr); [apply refines_ret, H|].
    destruct (k_popN_abs o (p_len pr) H) as [H1 A1].
    set (o1 := o_cut o (len (o_state o) - p_len pr)) in *.
    set (kids := rev (map snd (firstn (p_len pr) (o_abs o)))).
    rewrite <- A1.
    destruct (if p_act pr then (sem calls p kids, S calls, (p, kids) :: log)
              else (Some match kids with [] => ANil | k :: _ => k end, calls, log)) as [[res calls'] log'].
    destruct res as [a|].
    + rewrite (k_top_abs o1 H1). destruct (top (o_abs o1)) as [s0|]; [|apply refines_ret, H1].
      destruct (goto_at tb s0 (p_nt pr)) as [g|]; [|apply refines_ret, H1].
      destruct (g <? 0)%Z; [apply refines_ret, H1|].
      rewrite <- (k_push_abs o1 (Z.to_nat g) a H1).
      apply (IH (k_push grow_s grow_a o1 (Z.to_nat g) a)), k_push_inv, H1.
    + rewrite (k_mk_error_abs _ _ o1 H1). apply refines_ret, H1.
  - (* accept *)
    rewrite (k_popN_spec o 1 H). destruct (o_abs o) as [|[s0 a0] st]; [discriminate|].
    apply refines_ret, (k_popN_abs o 1 H).
  - (* error *)
    pose proof (k_error_step_spec (S (length input)) o pos H) as HR.
    destruct (k_error_step grow_s grow_a tb input (S (length input)) o pos) as [o' pos'|o' pos'|c|];
    destruct (error_step tb input (S (length input)) (o_abs o) (o_next o) pos) as [st nx ps|st ps|c'|];
    simpl in HR; try contradiction.
    + destruct HR as (H' & A' & N' & P'). subst. apply (IH o' ps calls log H').
    + destruct HR as (H' & A' & P'). subst. rewrite (k_mk_error_abs _ _ o' H'). apply refines_ret, H'.
    + subst. apply refines_ret, H.
    + apply refines_ret, H.
Qed.

End ObjLemmas.

(** no invariant assumed: whatever the arrays hold, whatever the lengths, whatever nextToken is *)
Theorem k_parse_is_parse : forall grow_s grow_a tb sem input fuel o,
  fst (k_parse grow_s grow_a tb sem input fuel o) = parse tb sem input fuel
  /\ o_inv (snd (k_parse grow_s grow_a tb sem input fuel o)).
Proof.
  intros. unfold k_parse, parse, k_Reset.
  set (o0 := set_next (k_push grow_s grow_a (k_reset o) 0 ANil) (tok_at input 0)).
  assert (H0 : o_inv o0) by (apply set_next_inv, k_push_inv, k_reset_inv).
  destruct (k_run_refines grow_s grow_a tb sem input fuel o0 1 0 [] H0) as [R I].
  split; [|exact I]. rewrite R. unfold o0.
  rewrite set_next_abs, k_push_abs by apply k_reset_inv. reflexivity.
Qed.

Theorem k_history_independent : forall grow_s grow_a tb fuel calls o,
  k_history grow_s grow_a tb fuel o calls = map (fun c => parse tb (fst c) (snd c) fuel) calls.
Proof.
  intros grow_s grow_a tb fuel calls. induction calls as [|[sem input] rest IH]; intros o; simpl; [reflexivity|].
  destruct (k_parse_is_parse grow_s grow_a tb sem input fuel o) as [R _].
  destruct (k_parse grow_s grow_a tb sem input fuel o) as [res o'].
  simpl in R. rewrite R, IH. reflexivity.
Qed.

Theorem k_run_garbage_irrelevant : forall grow_s grow_a grow_s' grow_a' tb sem input fuel o o' pos calls log,
  o_inv o -> o_inv o' -> o_abs o = o_abs o' -> o_next o = o_next o' ->
  fst (k_run grow_s grow_a tb sem input fuel o pos calls log) = fst (k_run grow_s' grow_a' tb sem input fuel o' pos calls log).
Proof.
  intros until log. intros H H' A N.
  destruct (k_run_refines grow_s grow_a tb sem input fuel o pos calls log H) as [R _].
  destruct (k_run_refines grow_s' grow_a' tb sem input fuel o' pos calls log H') as [R' _].
  rewrite R, R', A, N. reflexivity.
Qed.

(** * The theorems have teeth: a seeded bug in reset is caught

    Seeded bug: once the attribute array has grown beyond its initial 100 cells, reset re-allocates it as a slice of
    LENGTH 100 (make([]Attrib, 100) instead of [:0]) while the state slice is cut to length 0: the two slices are no
    longer aligned, and popN returns cells the current run never wrote. *)
Definition k_reset_bad (o : pobj) : pobj :=
  {| o_state := s_reset (o_state o);
     o_attrib := if 100 <? length (arr (o_attrib o)) then {| arr := repeat ANil 100; len := 100 |}
                 else s_reset (o_attrib o);
     o_next := o_next o |}.

Definition k_parse_bad grow_s grow_a tb sem input (fuel : nat) (o : pobj) : result * pobj :=
  k_run grow_s grow_a tb sem input fuel
        (set_next (k_push grow_s grow_a (k_reset_bad o) 0 ANil) (tok_at input 0)) 1 0 [].

Fixpoint k_history_bad (grow_s : nat -> list nat) (grow_a : nat -> list attr) (tb : tables)
                       (fuel : nat) (o : pobj) (calls : list ((nat -> nat -> list attr -> option attr) * list token))
  : list result :=
  match calls with
  | [] => []
  | (sem, input) :: rest =>
    let '(res, o') := k_parse_bad grow_s grow_a tb sem input fuel o in
    res :: k_history_bad grow_s grow_a tb fuel o' rest
  end.

(** Terminals: 0 INVALID, 1 end of input, 2 [a], 3 [b].  Nonterminals: 0 S', 1 S.
      0: S' -> S      1: S -> a S      2: S -> b
    canonical LR(1) automaton (every look-ahead is the end of input):
      0: S' -> .S  S -> .a S  S -> .b     1: S' -> S.     2: S -> a.S  S -> .a S  S -> .b     3: S -> b.     4: S -> a S. *)
Definition tb_ex : tables := {|
  t_states := [
    {| s_actions := [None; None; Some (Shift 2); Some (Shift 3)]; s_recover := false; s_gotos := [(-1)%Z; 1%Z] |};
    {| s_actions := [None; Some Accept; None; None]; s_recover := false; s_gotos := [(-1)%Z; (-1)%Z] |};
    {| s_actions := [None; None; Some (Shift 2); Some (Shift 3)]; s_recover := false; s_gotos := [(-1)%Z; 4%Z] |};
    {| s_actions := [None; Some (Reduce 2); None; None]; s_recover := false; s_gotos := [(-1)%Z; (-1)%Z] |};
    {| s_actions := [None; Some (Reduce 1); None; None]; s_recover := false; s_gotos := [(-1)%Z; (-1)%Z] |} ];
  t_prods := [ {| p_nt := 0; p_len := 1; p_act := false |};
               {| p_nt := 1; p_len := 2; p_act := true |};
               {| p_nt := 1; p_len := 1; p_act := true |} ];
  t_err := 0; t_gate := false |}.

Fixpoint toks_from (i : nat) (l : list nat) : list token :=
  match l with [] => [] | t :: r => {| ttype := t; tid := i |} :: toks_from (S i) r end.

(** first call: 101 [a] then [b] (the stack reaches 103 cells: both arrays are re-allocated); second call: "a b" *)
Definition hist_ex : list ((nat -> nat -> list attr -> option attr) * list token) :=
  [ (sem_node None, toks_from 0 (repeat 2 101 ++ [3]));
    (sem_node None, toks_from 0 [2; 3]) ].

Definition tk_ex (ty i : nat) : token := {| ttype := ty; tid := i |}.

Lemma k_parse_bad_small grow_s grow_a tb sem input fuel o : length (arr (o_attrib o)) <= 100 ->
  k_parse_bad grow_s grow_a tb sem input fuel o = k_parse grow_s grow_a tb sem input fuel o.
Proof.
  intros H. unfold k_parse_bad, k_parse, k_Reset, k_reset_bad, k_reset.
  replace (100 <? length (arr (o_attrib o))) with false by (symmetry; apply Nat.ltb_ge; exact H). reflexivity.
Qed.

Lemma k_history_bad_first grow_s grow_a tb fuel o sem input rest : length (arr (o_attrib o)) <= 100 ->
  nth_error (k_history_bad grow_s grow_a tb fuel o ((sem, input) :: rest)) 0 = Some (parse tb sem input fuel).
Proof.
  intros H. cbn [k_history_bad]. rewrite k_parse_bad_small by exact H.
  destruct (k_parse_is_parse grow_s grow_a tb sem input fuel o) as [R _].
  destruct (k_parse grow_s grow_a tb sem input fuel o) as [res o']. simpl in R. subst res. reflexivity.
Qed.

Example good_history_second :
  nth_error (k_history go_grow_s go_grow_a tb_ex 300 (k_new go_grow_s go_grow_a) hist_ex) 1 =
  Some (parse tb_ex (sem_node None) (toks_from 0 [2; 3]) 300)
  /\ parse tb_ex (sem_node None) (toks_from 0 [2; 3]) 300 =
     {| r_out := POk (ANode 1 [ATok (tk_ex 2 0); ANode 2 [ATok (tk_ex 3 1)]]);
        r_log := [(2, [ATok (tk_ex 3 1)]); (1, [ATok (tk_ex 2 0); ANode 2 [ATok (tk_ex 3 1)]])];
        r_scans := 3 |}.
Proof.
  split; [|vm_compute; reflexivity].
  exact (f_equal (fun l => nth_error l 1)
           (k_history_independent go_grow_s go_grow_a tb_ex 300 hist_ex (k_new go_grow_s go_grow_a))).
Qed.

Example bad_history_first :
  nth_error (k_history_bad go_grow_s go_grow_a tb_ex 300 (k_new go_grow_s go_grow_a) hist_ex) 0 =
  Some (parse tb_ex (sem_node None) (toks_from 0 (repeat 2 101 ++ [3])) 300)
  /\ match r_out (parse tb_ex (sem_node None) (toks_from 0 (repeat 2 101 ++ [3])) 300) with POk _ => True | _ => False end.
Proof.
  split; [|vm_compute; exact I].
  apply k_history_bad_first. vm_compute. apply le_n.
Qed.

(** the second call of the seeded variant hands stale/zero cells to the actions *)
Example bad_history_second :
  nth_error (k_history_bad go_grow_s go_grow_a tb_ex 300 (k_new go_grow_s go_grow_a) hist_ex) 1 =
  Some {| r_out := POk (ANode 1 [ANil; ANode 2 [ANil]]);
          r_log := [(2, [ANil]); (1, [ANil; ANode 2 [ANil]])];
          r_scans := 3 |}.
Proof. vm_compute. reflexivity. Qed.

Example bad_history_differs :
  nth_error (k_history_bad go_grow_s go_grow_a tb_ex 300 (k_new go_grow_s go_grow_a) hist_ex) 1 <>
  Some (parse tb_ex (sem_node None) (toks_from 0 [2; 3]) 300)
  /\ k_history go_grow_s go_grow_a tb_ex 300 (k_new go_grow_s go_grow_a) hist_ex =
     map (fun c => parse tb_ex (fst c) (snd c) 300) hist_ex.
Proof.
  split.
  - intros E.
    discriminate (eq_trans (eq_trans (eq_sym bad_history_second) E) (f_equal Some (proj2 good_history_second))).
  - apply k_history_independent.
Qed.

Print Assumptions k_run_refines.
Print Assumptions k_parse_is_parse.
Print Assumptions k_history_independent.
Print Assumptions k_run_garbage_irrelevant.
