(** Completeness of the LR parser model in small-step form, from [Complete.simulation_steps].

    An equality between [run] results at different fuels cannot tell whether the error-recovery
    branch of [run] ([error_step]) was taken on the way; [steps] of [Steps.v] performs Shift and
    Reduce moves only.  A parse tree of the start symbol whose yield is the input drives the
    parser, by [size t] Shift/Reduce moves, from the initial configuration to a configuration
    whose next move is Accept. *)
From Coq Require Import List ZArith Bool Arith Lia.
From Gocc Require Import LR.Parse LR.Validate LR.Trees LR.Complete LR.Steps.
Import ListNotations.

Definition mkc (st : stack) (i calls : nat) (lg : alog) : cfg :=
  {| c_st := st; c_i := i; c_calls := calls; c_log := lg |}.

(** a configuration whose next move is Accept *)
Definition accepting (tb : tables) (input : list token) (c : cfg) : Prop :=
  exists s, top (c_st c) = Some s /\ action_at tb s (ttype (tok_at input (c_i c))) = Some (Some Accept).

Section CS.
Variable g : grammar.
Variable tb : tables.
Variable an : annot.
Variable sem : nat -> nat -> list attr -> option attr.
Variable input : list token.
Hypothesis V : valid_forward g tb an = true.
Hypothesis sem_total : forall i p kids, sem i p kids <> None.

Section Top.
Variables (pr0 : prod) (X0 : sym) (t : tree).
Hypothesis Hpr0 : nth_error g 0 = Some pr0.
Hypothesis Hrhs0 : rhs pr0 = [X0].
Hypothesis Hwt : wt g X0 t input.

Theorem complete_steps :
  uses0 t = false ->
  exists s', let '(v, c', lg') := teval tb sem t 0 [] in
    steps tb sem input (size t) cfg0 = Some (mkc [(s', v); (0, ANil)] (length input) c' lg') /\
    accepting tb input (mkc [(s', v); (0, ANil)] (length input) c' lg').
Proof.
  intros Hu.
  destruct (top_steps g tb an sem input V sem_total pr0 X0 t Hpr0 Hrhs0 Hwt) as [(s' & Hact & HA)|[Hu' _]];
    [|congruence].
  exists s'. destruct (teval tb sem t 0 []) as [[v c'] lg'].
  split; [exact (HA _ _ _ eq_refl)|]. exists s'. split; [reflexivity|].
  cbn [mkc c_i]. rewrite (tok_at_overflow input _ (Nat.le_refl _)). exact Hact.
Qed.
End Top.

End CS.

Theorem lr_complete_steps :
  forall g tb an sem input,
    valid_forward g tb an = true -> start_fresh g = true ->
    (forall i p kids, sem i p kids <> None) ->
    forall pr0 X0 t, nth_error g 0 = Some pr0 -> rhs pr0 = [X0] -> wt g X0 t input ->
    exists s', let '(v, c', lg') := teval tb sem t 0 [] in
      steps tb sem input (size t) cfg0 = Some (mkc [(s', v); (0, ANil)] (length input) c' lg') /\
      accepting tb input (mkc [(s', v); (0, ANil)] (length input) c' lg').
Proof.
  intros g tb an sem input V Hf Hs pr0 X0 t H0 Hr Hwt.
  exact (complete_steps g tb an sem input V Hs pr0 X0 t H0 Hr Hwt (fresh_top_no_uses0 g pr0 X0 t input Hf H0 Hr Hwt)).
Qed.

(** every configuration on a [steps] path (strictly before the end) has a Shift or Reduce
    action: the nil-action branch of [run], the only place where [error_step] is called, is
    not taken *)
Lemma steps_no_error tb sem input : forall n c c', steps tb sem input n c = Some c' ->
  forall m c1, m < n -> steps tb sem input m c = Some c1 ->
  exists s act, top (c_st c1) = Some s /\
     action_at tb s (ttype (tok_at input (c_i c1))) = Some (Some act) /\ act <> Accept.
Proof.
  intros n c c' Hn m c1 Hm Hm1.
  replace n with (m + S (n - m - 1)) in Hn by lia.
  destruct (steps_prefix tb sem input _ _ _ _ Hn) as (c2 & H1 & H2).
  rewrite Hm1 in H1. inversion H1; subst c2.
  cbn [steps] in H2.
  destruct (step tb sem input c1) as [c3|] eqn:Hs; [|discriminate].
  eapply step_some_action; exact Hs.
Qed.

Print Assumptions lr_complete_steps.
Print Assumptions steps_no_error.
