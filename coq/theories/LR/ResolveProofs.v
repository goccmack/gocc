(** Proofs about [Resolve.row_action] (property C05: automatic conflict resolution prefers shift, then the
    earliest production), for EVERY candidate list, hence every order of the items.

    Candidates are [option act]; [None] is action.ERROR and is ignored by the fold.  With D the set of distinct
    non-ERROR candidates of a row, panic, winner and conflict set are functions of D alone.  The recorded conflict
    set is exactly D when |D| >= 2 although a candidate equal to the current winner is not recorded at that step:
    the winner is recorded as soon as a different candidate shows up. *)
From Coq Require Import List Bool Arith Permutation.
From Gocc Require Import LR.Parse LR.Resolve.
Import ListNotations.


Lemma act_eqb_spec : forall a b, reflect (a = b) (act_eqb a b).
Proof.
  intros [s|p|] [t|q|]; simpl; try (constructor; congruence).
  - destruct (Nat.eqb_spec s t); constructor; congruence.
  - destruct (Nat.eqb_spec p q); constructor; congruence.
Qed.

Lemma act_eq_dec : forall a b : act, {a = b} + {a <> b}.
Proof. decide equality; apply Nat.eq_dec. Qed.

Fixpoint somes (cs : list (option act)) : list act :=
  match cs with
  | [] => []
  | Some a :: r => a :: somes r
  | None :: r => somes r
  end.

Lemma in_somes : forall cs a, In a (somes cs) <-> In (Some a) cs.
Proof.
  induction cs as [|[b|] cs IH]; intros a; simpl.
  - tauto.
  - rewrite IH. split; intros [H|H]; auto; left; congruence.
  - rewrite IH. split; [auto|]. intros [H|H]; [discriminate|exact H].
Qed.

Lemma somes_app : forall a b, somes (a ++ b) = somes a ++ somes b.
Proof.
  induction a as [|[x|] a IH]; intros b; simpl; [reflexivity| |]; rewrite IH; reflexivity.
Qed.

Lemma somes_perm : forall cs cs', Permutation cs cs' -> Permutation (somes cs) (somes cs').
Proof.
  induction 1 as [|x l l' H IH|x y l|l l' l'' H1 IH1 H2 IH2].
  - constructor.
  - destruct x; simpl; [constructor|]; exact IH.
  - destruct x, y; simpl; try apply Permutation_refl. apply perm_swap.
  - eapply perm_trans; eassumption.
Qed.


Lemma existsb_act : forall a l, existsb (act_eqb a) l = true <-> In a l.
Proof.
  intros a l. rewrite existsb_exists. split.
  - intros [y [Hy E]]. destruct (act_eqb_spec a y); [subst; exact Hy|discriminate].
  - intros H. exists a. split; [exact H|]. destruct (act_eqb_spec a a); congruence.
Qed.

Lemma add_set_in : forall a l, In a l -> add_set a l = l.
Proof. intros a l H. unfold add_set. apply existsb_act in H. rewrite H. reflexivity. Qed.

Lemma add_set_notin : forall a l, ~ In a l -> add_set a l = l ++ [a].
Proof.
  intros a l H. unfold add_set. destruct (existsb (act_eqb a) l) eqn:E; [|reflexivity].
  apply existsb_act in E. contradiction.
Qed.

Lemma in_snoc : forall (A : Type) (l : list A) a x, In x (l ++ [a]) <-> In x l \/ x = a.
Proof.
  intros. rewrite in_app_iff. simpl. split; intros [H|H]; auto.
  - destruct H as [H|[]]. auto.
Qed.

Lemma in_add_set : forall a l x, In x (add_set a l) <-> In x l \/ x = a.
Proof.
  intros a l x. destruct (in_dec act_eq_dec a l) as [H|H].
  - rewrite add_set_in by exact H. split; [auto|]. intros [H1|H1]; [exact H1|subst; exact H].
  - rewrite add_set_notin by exact H. apply in_snoc.
Qed.

Lemma NoDup_add_set : forall a l, NoDup l -> NoDup (add_set a l).
Proof.
  intros a l H. destruct (in_dec act_eq_dec a l) as [Hi|Hi].
  - rewrite add_set_in by exact Hi. exact H.
  - rewrite add_set_notin by exact Hi.
    apply (Permutation_NoDup (Permutation_cons_append l a)). constructor; assumption.
Qed.

Lemma length_add_set : forall a l, length l <= length (add_set a l).
Proof.
  intros a l. destruct (in_dec act_eq_dec a l) as [Hi|Hi].
  - rewrite add_set_in by exact Hi. apply le_n.
  - rewrite add_set_notin by exact Hi. rewrite app_length. apply Nat.le_add_r.
Qed.

Definition dedup_acts (l : list act) : list act := fold_left (fun acc a => add_set a acc) l [].

Lemma dedup_acts_snoc : forall l a, dedup_acts (l ++ [a]) = add_set a (dedup_acts l).
Proof. intros. unfold dedup_acts. rewrite fold_left_app. reflexivity. Qed.

Lemma in_dedup_acts : forall l x, In x (dedup_acts l) <-> In x l.
Proof.
  induction l as [|a l IH] using rev_ind; intros x.
  - simpl. tauto.
  - rewrite dedup_acts_snoc, in_add_set, in_snoc, IH. tauto.
Qed.

Lemma NoDup_dedup_acts : forall l, NoDup (dedup_acts l).
Proof.
  induction l as [|a l IH] using rev_ind.
  - constructor.
  - rewrite dedup_acts_snoc. apply NoDup_add_set. exact IH.
Qed.

(** what ItemSet.Action returns as conflicts: nothing, or all distinct candidates *)
Definition conf_spec (l : list act) : list act :=
  if length (dedup_acts l) <=? 1 then [] else dedup_acts l.

Lemma conf_same : forall l a, In a l -> conf_spec (l ++ [a]) = conf_spec l.
Proof.
  intros l a H. unfold conf_spec. rewrite dedup_acts_snoc.
  rewrite add_set_in by (apply in_dedup_acts; exact H). reflexivity.
Qed.

Lemma conf_diff : forall l a b,
  In b l -> a <> b -> add_set a (add_set b (conf_spec l)) = conf_spec (l ++ [a]).
Proof.
  intros l a b Hb Hab. unfold conf_spec. rewrite dedup_acts_snoc.
  apply in_dedup_acts in Hb. remember (dedup_acts l) as d eqn:Ed. clear Ed l.
  destruct (length d <=? 1) eqn:E.
  - apply Nat.leb_le in E.
    assert (d = [b]) as ->.
    { destruct d as [|x [|y d]]; simpl in E, Hb.
      - contradiction.
      - destruct Hb as [->|[]]. reflexivity.
      - destruct (Nat.nle_succ_0 _ (le_S_n _ _ E)). }
    assert (H1 : add_set b [] = [b]) by reflexivity.
    assert (H2 : add_set a [b] = [b; a]).
    { apply add_set_notin. intros [H|[]]. congruence. }
    rewrite H1, H2. reflexivity.
  - apply Nat.leb_gt in E.
    rewrite (add_set_in b d) by exact Hb.
    pose proof (length_add_set a d) as Hl.
    destruct (length (add_set a d) <=? 1) eqn:E'; [|reflexivity].
    apply Nat.leb_le in E'. destruct (Nat.lt_irrefl _ (Nat.lt_le_trans _ _ _ E (Nat.le_trans _ _ _ Hl E'))).
Qed.


(** the Go code panics *)
Definition panics_on (l : list act) : Prop :=
  (In Accept l /\ exists a, a <> Accept /\ In a l)
  \/ (exists s t, s <> t /\ In (Shift s) l /\ In (Shift t) l).

Definition no_panic (l : list act) : Prop :=
  (In Accept l -> forall x, In x l -> x = Accept) /\ (forall s t, In (Shift s) l -> In (Shift t) l -> s = t).

Definition winner_spec (l : list act) (w : option act) : Prop :=
  match w with
  | None => forall a, ~ In a l
  | Some (Shift s) => In (Shift s) l
  | Some (Reduce p) =>
      (forall s, ~ In (Shift s) l) /\ In (Reduce p) l /\ (forall q, In (Reduce q) l -> p <= q)
  | Some Accept => In Accept l
  end.

Lemma no_panic_not_panics : forall l, no_panic l -> ~ panics_on l.
Proof.
  intros l [HA HS] [[H1 [a [H2 H3]]]|[s [t [H1 [H2 H3]]]]].
  - exact (H2 (HA H1 a H3)).
  - exact (H1 (HS s t H2 H3)).
Qed.

Lemma no_panic_ext : forall l l', (forall x, In x l <-> In x l') -> no_panic l -> no_panic l'.
Proof.
  intros l l' H [HA HS]. split.
  - intros H1 x Hx. apply H in H1, Hx. exact (HA H1 x Hx).
  - intros s t H1 H2. apply H in H1, H2. exact (HS s t H1 H2).
Qed.

Lemma winner_ext : forall l l' w, (forall x, In x l <-> In x l') -> winner_spec l w -> winner_spec l' w.
Proof.
  intros l l' [[s|p|]|] H HW; simpl in *.
  - apply H. exact HW.
  - destruct HW as [H1 [H2 H3]]. split; [|split].
    + intros s Hs. apply (H1 s). apply H. exact Hs.
    + apply H. exact H2.
    + intros q Hq. apply H3. apply H. exact Hq.
  - apply H. exact HW.
  - intros a Ha. apply (HW a). apply H. exact Ha.
Qed.

Lemma winner_in : forall l a, winner_spec l (Some a) -> In a l.
Proof. intros l [s|p|] H; simpl in H; [exact H|destruct H as [_ [H _]]; exact H|exact H]. Qed.

Lemma accept_other_panics : forall l x, In Accept l -> In x l -> x <> Accept -> panics_on l.
Proof. intros l x H1 H2 H3. left. split; [exact H1|]. exists x. split; assumption. Qed.

Lemma winner_unique : forall l w w', no_panic l -> winner_spec l w -> winner_spec l w' -> w = w'.
Proof.
  intros l w w' [HA HS] H H'.
  destruct w as [a|], w' as [a'|]; [| | |reflexivity].
  - apply winner_in in H as Hi. apply winner_in in H' as Hi'.
    (* Accept with itself is reflexivity; Accept with anything else contradicts [HA]; shift/shift, shift/reduce,
       reduce/shift and reduce/reduce are left *)
    destruct a as [s|p|], a' as [s'|p'|]; simpl in H, H'; try reflexivity;
      try discriminate (HA Hi _ Hi'); try discriminate (HA Hi' _ Hi).
    + rewrite (HS s s' H H'). reflexivity.
    + destruct H' as [H' _]. destruct (H' s H).
    + destruct H as [H _]. destruct (H s' H').
    + destruct H as [_ [H1 H3]], H' as [_ [H1' H3']].
      rewrite (Nat.le_antisymm _ _ (H3 _ H1') (H3' _ H1)). reflexivity.
  - destruct (H' a (winner_in _ _ H)).
  - destruct (H a' (winner_in _ _ H')).
Qed.

Lemma panics_on_snoc : forall l a, panics_on l -> panics_on (l ++ [a]).
Proof.
  intros l a [[H1 [x [H2 H3]]]|[s [t [H1 [H2 H3]]]]].
  - left. split; [apply in_snoc; auto|]. exists x. split; [exact H2|apply in_snoc; auto].
  - right. exists s, t. split; [exact H1|]. split; apply in_snoc; auto.
Qed.

Lemma ltb_min : forall p q, (if p <? q then p else q) = Nat.min p q.
Proof.
  intros p q. destruct (Nat.ltb_spec p q) as [H|H]; symmetry; [apply Nat.min_l, Nat.lt_le_incl, H|apply Nat.min_r, H].
Qed.

Lemma no_panic_snoc : forall l a b, no_panic l -> In b l -> b <> Accept -> a <> Accept ->
  (forall s t, Shift s = a -> In (Shift t) l -> s = t) -> no_panic (l ++ [a]).
Proof.
  intros l a b [HA HS] Hb Hb' Ha Hs. split.
  - intros H. apply in_snoc in H. destruct H as [H|H]; [destruct (Hb' (HA H b Hb))|destruct (Ha (eq_sym H))].
  - intros s t H1 H2. apply in_snoc in H1, H2. destruct H1 as [H1|H1], H2 as [H2|H2].
    + exact (HS s t H1 H2).
    + symmetry. exact (Hs t s H2 H1).
    + exact (Hs s t H1 H2).
    + congruence.
Qed.


Definition fold_inv (l : list act) (res : option (option act * list act)) : Prop :=
  match res with
  | None => panics_on l
  | Some (w, cf) => no_panic l /\ winner_spec l w /\ cf = conf_spec l
  end.

Lemma row_from_snoc : forall cs st c,
  row_from st (cs ++ [c])
  = match row_from st cs with None => None | Some st' => row_step st' c end.
Proof.
  induction cs as [|x cs IH]; intros st c; simpl.
  - destruct (row_step st c); reflexivity.
  - destruct (row_step st x); [apply IH|reflexivity].
Qed.

Lemma inv_step : forall l w cf a,
  fold_inv l (Some (w, cf)) -> fold_inv (l ++ [a]) (row_step (w, cf) (Some a)).
Proof.
  intros l w cf a [HN [HW Hcf]]. unfold row_step. simpl fst. simpl snd.
  destruct w as [b|].
  2:{ (* first non-ERROR candidate *)
    simpl in HW.
    assert (l = []) as ->.
    { destruct l as [|x l]; [reflexivity|]. destruct (HW x). left. reflexivity. }
    subst cf. simpl app. split; [|split; [|reflexivity]].
    - split.
      + intros [<-|[]] x [<-|[]]. reflexivity.
      + intros s t [E|[]] [E'|[]]. congruence.
    - destruct a as [s|p|]; simpl.
      + left. reflexivity.
      + split; [|split].
        * intros s [H|[]]. discriminate.
        * left. reflexivity.
        * intros q [H|[]]. injection H as <-. apply le_n.
      + left. reflexivity. }
  pose proof (winner_in _ _ HW) as Hb.
  destruct (act_eqb_spec b a) as [->|Hne].
  { (* same as the current winner: nothing happens *)
    assert (E : forall x, In x l <-> In x (l ++ [a])).
    { intros x. rewrite in_snoc. split; [auto|]. intros [H|H]; [exact H|subst; exact Hb]. }
    split; [|split].
    - revert HN. apply no_panic_ext. exact E.
    - revert HW. apply winner_ext. exact E.
    - rewrite conf_same by exact Hb. exact Hcf. }
  (* a genuine conflict: both are recorded; Accept on either side, or two shifts, panic *)
  assert (Hcf' : add_set a (add_set b cf) = conf_spec (l ++ [a])).
  { subst cf. apply conf_diff; [exact Hb|congruence]. }
  assert (Hbl : In b (l ++ [a])) by (apply in_snoc; auto).
  assert (Hal : In a (l ++ [a])) by (apply in_snoc; auto).
  destruct b as [s|p|]; simpl in HW.
  - (* winner Shift s *)
    destruct a as [t|q|]; simpl resolve; cbv iota.
    + right. exists s, t. split; [congruence|]. split; assumption.
    + split; [|split; [exact Hbl|exact Hcf']].
      apply (no_panic_snoc l _ (Shift s)); try assumption; discriminate.
    + apply (accept_other_panics _ (Shift s)); [exact Hal|exact Hbl|discriminate].
  - (* winner Reduce p *)
    destruct HW as [HS [_ HM]].
    assert (HN' : forall c, c <> Accept -> no_panic (l ++ [c])).
    { intros c Hc. apply (no_panic_snoc l c (Reduce p)); try assumption; [discriminate|].
      intros s t _ Ht. destruct (HS t Ht). }
    destruct a as [t|q|]; simpl resolve; cbv iota.
    + split; [apply HN'; discriminate|]. split; [exact Hal|exact Hcf'].
    + split; [apply HN'; discriminate|]. split; [|exact Hcf']. rewrite ltb_min. simpl. split; [|split].
      * intros s H. apply in_snoc in H. destruct H as [H|H]; [exact (HS _ H)|discriminate].
      * destruct (Nat.min_dec p q) as [->| ->]; assumption.
      * intros r H. apply in_snoc in H. destruct H as [H|H].
        -- exact (Nat.le_trans _ _ _ (Nat.le_min_l p q) (HM _ H)).
        -- injection H as ->. apply Nat.le_min_r.
    + apply (accept_other_panics _ (Reduce p)); [exact Hal|exact Hbl|discriminate].
  - (* winner Accept: any different candidate panics *)
    simpl resolve. cbv iota.
    apply (accept_other_panics _ a); [exact Hbl|exact Hal|congruence].
Qed.

Lemma row_action_inv : forall cs, fold_inv (somes cs) (row_action cs).
Proof.
  unfold row_action.
  induction cs as [|c cs IH] using rev_ind.
  - simpl. split; [|split].
    + split; [intros []|intros s t []].
    + intros a [].
    + reflexivity.
  - rewrite row_from_snoc, somes_app.
    destruct (row_from (None, []) cs) as [[w cf]|].
    + destruct c as [a|].
      * simpl somes. apply inv_step. exact IH.
      * simpl somes. rewrite app_nil_r. exact IH.
    + simpl in IH |- *. destruct c as [a|]; simpl somes.
      * apply panics_on_snoc. exact IH.
      * rewrite app_nil_r. exact IH.
Qed.


Definition panics (cs : list (option act)) : Prop :=
  (In (Some Accept) cs /\ exists a, a <> Accept /\ In (Some a) cs)
  \/ (exists s t, s <> t /\ In (Some (Shift s)) cs /\ In (Some (Shift t)) cs).

Lemma panics_iff_somes : forall cs, panics cs <-> panics_on (somes cs).
Proof. intros cs. unfold panics, panics_on. setoid_rewrite in_somes. reflexivity. Qed.

Theorem row_action_panic : forall cs, row_action cs = None <-> panics cs.
Proof.
  intros cs. rewrite panics_iff_somes. pose proof (row_action_inv cs) as H.
  destruct (row_action cs) as [[w cf]|]; simpl in H.
  - split; [discriminate|]. intros HP. destruct (no_panic_not_panics _ (proj1 H) HP).
  - tauto.
Qed.

Theorem row_action_winner : forall cs w cf,
  row_action cs = Some (w, cf) ->
  (forall s, w = Some (Shift s) <-> In (Some (Shift s)) cs)
  /\ (forall p, w = Some (Reduce p) <->
        (forall s, ~ In (Some (Shift s)) cs)
        /\ In (Some (Reduce p)) cs
        /\ (forall q, In (Some (Reduce q)) cs -> p <= q))
  /\ (w = Some Accept <-> In (Some Accept) cs)
  /\ (w = None <-> forall a, ~ In (Some a) cs).
Proof.
  intros cs w cf E. pose proof (row_action_inv cs) as H. rewrite E in H.
  destruct H as [HN [HW _]].
  assert (U : forall w', w = w' <-> winner_spec (somes cs) w').
  { intros w'. split; [intros <-; exact HW|]. intros H'. exact (winner_unique _ _ _ HN HW H'). }
  setoid_rewrite <- in_somes. split; [|split; [|split]]; intros; apply U.
Qed.

Theorem row_action_conflicts : forall cs w cf,
  row_action cs = Some (w, cf) ->
  cf = (if length (dedup_acts (somes cs)) <=? 1 then [] else dedup_acts (somes cs)).
Proof.
  intros cs w cf E. pose proof (row_action_inv cs) as H. rewrite E in H.
  destruct H as [_ [_ H]]. exact H.
Qed.

Theorem dedup_somes_spec : forall cs,
  NoDup (dedup_acts (somes cs)) /\ forall a, In a (dedup_acts (somes cs)) <-> In (Some a) cs.
Proof.
  intros cs. split; [apply NoDup_dedup_acts|]. intros a. rewrite in_dedup_acts. apply in_somes.
Qed.

Lemma short_all_equal : forall (d : list act),
  length d <= 1 -> forall a b, In a d -> In b d -> a = b.
Proof.
  intros [|x [|y d]] H a b Ha Hb; simpl in *.
  - contradiction.
  - destruct Ha as [<-|[]]. destruct Hb as [<-|[]]. reflexivity.
  - destruct (Nat.nle_succ_0 _ (le_S_n _ _ H)).
Qed.

Lemma long_nodup_two : forall (d : list act),
  NoDup d -> 1 < length d -> exists a b, a <> b /\ In a d /\ In b d.
Proof.
  intros [|x [|y d]] H Hl; [destruct (Nat.nlt_0_r _ Hl)|destruct (Nat.lt_irrefl _ Hl)|].
  exists x, y. inversion H as [|? ? Hx _]; subst.
  split; [|split; [left; reflexivity|right; left; reflexivity]].
  intros ->. apply Hx. left. reflexivity.
Qed.

Theorem row_action_conflicts_nonempty : forall cs w cf,
  row_action cs = Some (w, cf) ->
  (cf <> [] <-> exists a b, a <> b /\ In (Some a) cs /\ In (Some b) cs).
Proof.
  intros cs w cf E. rewrite (row_action_conflicts _ _ _ E).
  destruct (dedup_somes_spec cs) as [ND HI].
  destruct (length (dedup_acts (somes cs)) <=? 1) eqn:L.
  - apply Nat.leb_le in L. split; [congruence|].
    intros [a [b [Hab [Ha Hb]]]]. exfalso. apply Hab.
    apply (short_all_equal _ L); apply HI; assumption.
  - apply Nat.leb_gt in L. split.
    + intros _. destruct (long_nodup_two _ ND L) as [a [b [Hab [Ha Hb]]]].
      exists a, b. split; [exact Hab|]. split; apply HI; assumption.
    + intros _ Hnil. rewrite Hnil in L. destruct (Nat.nlt_0_r _ L).
Qed.

Corollary row_action_conflicts_all : forall cs w cf,
  row_action cs = Some (w, cf) ->
  (exists a b, a <> b /\ In (Some a) cs /\ In (Some b) cs) ->
  NoDup cf /\ forall a, In a cf <-> In (Some a) cs.
Proof.
  intros cs w cf E H2.
  pose proof (proj2 (row_action_conflicts_nonempty _ _ _ E) H2) as Hne.
  rewrite (row_action_conflicts _ _ _ E) in Hne |- *.
  destruct (length (dedup_acts (somes cs)) <=? 1); [congruence|]. apply dedup_somes_spec.
Qed.

Lemma row_action_free_unique : forall cs w a b,
  row_action cs = Some (w, []) -> In (Some a) cs -> In (Some b) cs -> a = b.
Proof.
  intros cs w a b E Ha Hb. destruct (act_eq_dec a b) as [|Hne]; [assumption|].
  assert (Hc : @nil act <> []) by (apply (row_action_conflicts_nonempty _ _ _ E); exists a, b; auto).
  now elim Hc.
Qed.

Lemma row_free cs w : row_action cs = Some (w, []) -> forall x, w = Some x <-> In (Some x) cs.
Proof.
  intros E. destruct (row_action_winner _ _ _ E) as (WS & WR & WA & WN).
  assert (FW : forall x, w = Some x -> In (Some x) cs).
  { intros x ->. destruct x as [s|p|]; [now apply WS|now apply WR|now apply WA]. }
  intros x. split; [apply FW|]. intros Hin. destruct w as [y|].
  - f_equal. apply (row_action_free_unique _ _ _ _ E); [now apply FW|assumption].
  - exfalso. apply (proj1 WN eq_refl x Hin).
Qed.

Lemma row_action_no_conflict : forall cs w cf, row_action cs = Some (w, cf) ->
  (forall a b, In (Some a) cs -> In (Some b) cs -> a = b) -> cf = [].
Proof.
  intros cs w cf E Hall. destruct cf as [|x cf]; [reflexivity|].
  assert (Hne : x :: cf <> []) by discriminate.
  apply (row_action_conflicts_nonempty _ _ _ E) in Hne.
  destruct Hne as [u [v [Huv [Hu Hv]]]]. destruct (Huv (Hall u v Hu Hv)).
Qed.

Theorem row_action_single : forall cs a,
  In (Some a) cs -> (forall b, In (Some b) cs -> b = a) ->
  row_action cs = Some (Some a, []).
Proof.
  intros cs a Ha Hall.
  destruct (row_action cs) as [[w cf]|] eqn:E.
  2:{ apply row_action_panic in E. destruct E as [[H1 [x [H2 H3]]]|[s [t [H1 [H2 H3]]]]].
    - apply Hall in H1. apply Hall in H3. congruence.
    - apply Hall in H2. apply Hall in H3. congruence. }
  rewrite (row_action_no_conflict _ _ _ E) by (intros u v Hu Hv; rewrite (Hall u Hu), (Hall v Hv); reflexivity).
  pose proof (row_action_winner _ _ _ E) as [WS [WR [WA _]]].
  assert (w = Some a) as ->; [|reflexivity].
  destruct a as [s|p|].
  - apply WS. exact Ha.
  - apply WR. split; [|split].
    + intros s Hs. apply Hall in Hs. discriminate.
    + exact Ha.
    + intros q Hq. apply Hall in Hq. injection Hq as ->. apply le_n.
  - apply WA. exact Ha.
Qed.

Theorem row_action_none : forall cs,
  (forall a, ~ In (Some a) cs) -> row_action cs = Some (None, []).
Proof.
  intros cs Hall.
  destruct (row_action cs) as [[w cf]|] eqn:E.
  2:{ apply row_action_panic in E.
    destruct E as [[H1 _]|[s [t [_ [H2 _]]]]]; [destruct (Hall _ H1)|destruct (Hall _ H2)]. }
  rewrite (row_action_no_conflict _ _ _ E) by (intros u v Hu; destruct (Hall _ Hu)).
  destruct (row_action_winner _ _ _ E) as (_ & _ & _ & WN). rewrite (proj2 WN Hall). reflexivity.
Qed.

Theorem row_action_perm : forall cs cs',
  Permutation cs cs' ->
  match row_action cs, row_action cs' with
  | None, None => True
  | Some (w, cf), Some (w', cf') => w = w' /\ Permutation cf cf'
  | _, _ => False
  end.
Proof.
  intros cs cs' HPm.
  pose proof (somes_perm _ _ HPm) as HS.
  assert (E : forall x, In x (somes cs) <-> In x (somes cs')).
  { intros x. split; apply Permutation_in; [exact HS|apply Permutation_sym; exact HS]. }
  assert (E' : forall x, In x (somes cs') <-> In x (somes cs)) by (intros x; symmetry; apply E).
  pose proof (row_action_inv cs) as H. pose proof (row_action_inv cs') as H'.
  destruct (row_action cs) as [[w cf]|], (row_action cs') as [[w' cf']|]; simpl in H, H'.
  - destruct H as [HN [HW Hcf]], H' as [HN' [HW' Hcf']]. split.
    + apply (winner_unique (somes cs')); [exact HN'| |exact HW']. revert HW. apply winner_ext. exact E.
    + subst cf cf'. unfold conf_spec.
      assert (PD : Permutation (dedup_acts (somes cs)) (dedup_acts (somes cs'))).
      { apply NoDup_Permutation; try apply NoDup_dedup_acts.
        intros x. rewrite !in_dedup_acts. apply E. }
      rewrite (Permutation_length PD).
      destruct (length (dedup_acts (somes cs')) <=? 1); [constructor|exact PD].
  - destruct H as [HN _]. exact (no_panic_not_panics _ (no_panic_ext _ _ E HN) H').
  - destruct H' as [HN' _]. exact (no_panic_not_panics _ (no_panic_ext _ _ E' HN') H).
  - exact I.
Qed.

(** consequence used by the conflict COUNT (main.go counts rows/symbols whose conflict list
    is non-empty): emptiness of the conflict set is order independent *)
Corollary row_action_perm_count : forall cs cs' w cf w' cf',
  Permutation cs cs' ->
  row_action cs = Some (w, cf) -> row_action cs' = Some (w', cf') ->
  w = w' /\ length cf = length cf'.
Proof.
  intros cs cs' w cf w' cf' HPm E E'. pose proof (row_action_perm _ _ HPm) as H.
  rewrite E, E' in H. destruct H as [H1 H2]. split; [exact H1|apply Permutation_length; exact H2].
Qed.


Example ex_sr1 : row_action [Some (Reduce 4); None; Some (Shift 7); Some (Reduce 2)]
                 = Some (Some (Shift 7), [Reduce 4; Shift 7; Reduce 2]).
Proof. reflexivity. Qed.
Example ex_sr2 : row_action [Some (Shift 7); Some (Reduce 2); None; Some (Reduce 4)]
                 = Some (Some (Shift 7), [Shift 7; Reduce 2; Reduce 4]).
Proof. reflexivity. Qed.

Example ex_rr1 : row_action [Some (Reduce 5); Some (Reduce 3); Some (Reduce 9)]
                 = Some (Some (Reduce 3), [Reduce 5; Reduce 3; Reduce 9]).
Proof. reflexivity. Qed.
Example ex_rr2 : row_action [Some (Reduce 9); Some (Reduce 3); Some (Reduce 5)]
                 = Some (Some (Reduce 3), [Reduce 9; Reduce 3; Reduce 5]).
Proof. reflexivity. Qed.

(** [Reduce 3; Reduce 5; Reduce 5]: the second Reduce 5 is
    compared with the winner Reduce 3, differs, and is (re-)inserted: the set is {3, 5}.
    A candidate equal to the current winner is skipped, but the winner itself was or will be
    recorded: [Reduce 3; Reduce 3; Reduce 5] also gives {3, 5}. *)
Example ex_dup1 : row_action [Some (Reduce 3); Some (Reduce 5); Some (Reduce 5)]
                  = Some (Some (Reduce 3), [Reduce 3; Reduce 5]).
Proof. reflexivity. Qed.
Example ex_dup2 : row_action [Some (Reduce 3); Some (Reduce 3); Some (Reduce 5)]
                  = Some (Some (Reduce 3), [Reduce 3; Reduce 5]).
Proof. reflexivity. Qed.

Example ex_single : row_action [None; Some (Shift 2); Some (Shift 2); None; Some (Shift 2)]
                    = Some (Some (Shift 2), []).
Proof. reflexivity. Qed.
Example ex_empty : row_action [None; None] = Some (None, []).
Proof. reflexivity. Qed.

Example ex_panic_acc1 : row_action [Some Accept; Some (Reduce 1)] = None.
Proof. reflexivity. Qed.
Example ex_panic_acc2 : row_action [Some (Reduce 1); Some Accept] = None.
Proof. reflexivity. Qed.
Example ex_panic_acc3 : row_action [Some (Reduce 1); Some (Shift 3); Some Accept] = None.
Proof. reflexivity. Qed.
Example ex_panic_ss1 : row_action [Some (Shift 1); Some (Reduce 0); Some (Shift 2)] = None.
Proof. reflexivity. Qed.
Example ex_panic_ss2 : row_action [Some (Reduce 0); Some (Shift 2); Some (Shift 1)] = None.
Proof. reflexivity. Qed.
Example ex_accept_only : row_action [Some Accept; None; Some Accept] = Some (Some Accept, []).
Proof. reflexivity. Qed.

Print Assumptions row_action_panic.
Print Assumptions row_action_winner.
Print Assumptions row_action_conflicts.
Print Assumptions row_action_conflicts_nonempty.
Print Assumptions row_action_conflicts_all.
Print Assumptions row_action_single.
Print Assumptions row_action_none.
Print Assumptions row_action_perm.
Print Assumptions row_action_perm_count.
