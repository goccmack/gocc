(** Soundness of the table-driven parser model for ANY grammar, tables and annotation passing
    [valid_backward], on which [error_step] cannot resume the loop ([no_error_shift], or the
    gate of SoundGated.v): an accepted input has a parse tree for the start
    symbol whose yield is exactly the input, and the returned value / action log are the
    post-order evaluation of the actions over that tree (C02 "only if", C03, C15 "only if"). *)
From Coq Require Import List Arith ZArith Lia Bool.
From Gocc Require Import LR.Parse LR.Validate LR.Trees LR.Eval LR.ValidateProofs LR.Steps.
Import ListNotations.

Section Sound.
Variable g : grammar.
Variable tb : tables.
Variable an : annot.
Variable sem : nat -> nat -> list attr -> option attr.
Variable input : list token.

Hypothesis SH : shape_P g tb an.
Hypothesis BW : backward_P g tb an.
Hypothesis NES : forall s s', action_at tb s (t_err tb) <> Some (Some (Shift s')).
Hypothesis INP : Forall (fun t => ttype t <> EOFT) input.
Hypothesis INR : Forall (fun t => ttype t < nterms tb) input.   (* token types are columns of the table *)

Notation items_of := (items_of an).

Definition top_state (cells : stack) : nat := match cells with [] => 0 | (s, _) :: _ => s end.

(** cells above the bottom cell, top first; ghost trees top first; consumed input *)
Inductive wf_cells : stack -> list tree -> list token -> Prop :=
| wfc_nil : wf_cells [] [] []
| wfc_cons s a cells ts w X t wx :
    wf_cells cells ts w -> trans tb (top_state cells) X = Some s -> wt g X t wx ->
    wf_cells ((s, a) :: cells) (t :: ts) (w ++ wx).

Lemma wf_cells_length cells ts w : wf_cells cells ts w -> length ts = length cells.
Proof. induction 1; simpl; congruence. Qed.

Lemma top_state_0 cells ts w : wf_cells cells ts w -> top_state cells = 0 -> cells = [].
Proof.
  intros H. destruct H as [|s a cells ts w X t wx Hwf Htr Hwt]; [reflexivity|].
  simpl. intros ->. destruct (B_kernel _ _ _ BW _ _ _ Htr) as [Hne _]. congruence.
Qed.

Lemma wts_snoc ss ts w X t wx : wts g ss ts w -> wt g X t wx -> wts g (ss ++ [X]) (ts ++ [t]) (w ++ wx).
Proof.
  intros H Ht. induction H.
  - simpl. rewrite <- (app_nil_r wx). constructor; [assumption|constructor].
  - simpl. rewrite <- app_assoc. constructor; assumption.
Qed.

(** key lemma: an item with the dot at [k] in the top state: the top [k] cells carry trees for
    the first [k] body symbols, in order, and the state below them holds the dot-0 item *)
Lemma item_prefix : forall cells ts w, wf_cells cells ts w ->
  forall p k la pr, In (p, k, la) (items_of (top_state cells)) -> nth_error g p = Some pr ->
  k <= length cells /\
  exists ws w0, wts g (firstn k (rhs pr)) (rev (firstn k ts)) ws /\
                wf_cells (skipn k cells) (skipn k ts) w0 /\ w = w0 ++ ws /\
                In (p, 0, la) (items_of (top_state (skipn k cells))).
Proof.
  intros cells ts w Hwf. induction Hwf as [|s a cells ts w X t wx Hwf IH Htr Hwt]; intros p k la pr Hin Hp.
  - simpl in Hin. apply (B_init _ _ _ BW) in Hin as Hk. subst k. simpl. split; [lia|].
    exists [], []. repeat split; try constructor. exact Hin.
  - destruct k as [|k].
    + simpl. split; [lia|]. exists [], (w ++ wx). repeat split.
      * constructor.
      * econstructor; eauto.
      * now rewrite app_nil_r.
      * exact Hin.
    + change (top_state ((s, a) :: cells)) with s in Hin.
      destruct (B_kernel _ _ _ BW _ _ _ Htr) as [_ Hk].
      destruct (Hk _ _ _ Hin) as (pr' & Hp' & Hnth & Hin').
      rewrite Hp in Hp'. inversion Hp'; subst pr'. clear Hp'.
      destruct (IH _ _ _ _ Hin' Hp) as (Hlen & ws & w0 & Hwts & Hwf0 & Hw & Hin0).
      split; [simpl; lia|]. exists (ws ++ wx), w0.
      change (skipn (S k) ((s, a) :: cells)) with (skipn k cells).
      change (skipn (S k) (t :: ts)) with (skipn k ts).
      change (firstn (S k) (t :: ts)) with (t :: firstn k ts). cbn [rev].
      repeat split.
      * rewrite (firstn_snoc _ _ _ Hnth). apply wts_snoc; assumption.
      * exact Hwf0.
      * rewrite Hw. now rewrite app_assoc.
      * exact Hin0.
Qed.

Lemma accept_stack cells ts w a : wf_cells cells ts w ->
  action_at tb (top_state cells) a = Some (Some Accept) ->
  exists pr0 X0 s v t, nth_error g 0 = Some pr0 /\ rhs pr0 = [X0] /\ cells = [(s, v)] /\ ts = [t] /\ wt g X0 t w.
Proof.
  intros Hwf Hact. destruct (B_accept _ _ _ BW _ _ Hact) as (_ & pr0 & Hp0 & Hl & Hin).
  destruct (item_prefix _ _ _ Hwf _ _ _ _ Hin Hp0) as (Hk & ws & w0 & Hwts & Hwf0 & Hw & Hin0).
  apply (B_start0 _ _ _ BW) in Hin0. pose proof (top_state_0 _ _ _ Hwf0 Hin0) as Hnil.
  destruct cells as [|[s v] cells]; [simpl in Hk; lia|]. simpl in Hnil. subst cells.
  inversion Hwf as [|? ? ? ts' ? ? t ? Hwf' ? ? ]; subst. inversion Hwf'; subst. simpl in * |-.
  destruct (rhs pr0) as [|X0 [|? ?]] eqn:Hr; try discriminate.
  simpl in Hwts. inversion Hwts as [|? ? ? ? ? ? Hwt1 Hwts']; subst. inversion Hwts'; subst.
  inversion Hwf0; subst. cbn [app]. rewrite app_nil_r.
  exists pr0, X0, s, v, t. auto 6.
Qed.

Definition Inv (cells : stack) (ts : list tree) (i calls : nat) (log : calllog) : Prop :=
  wf_cells cells ts (firstn i input) /\
  evals tb sem (rev ts) 0 [] = EOk (rev (map snd cells)) calls (rev log).

Definition good_result (r : result) : Prop :=
  match r_out r with
  | POk v => exists t pr0 X0 c, nth_error g 0 = Some pr0 /\ rhs pr0 = [X0] /\ wt g X0 t input /\
                                eval tb sem t 0 [] = EOk v c (r_log r)
  | PErr e =>
    match e_action e with
    | Some i => exists p kids l0, r_log r = l0 ++ [(p, kids)] /\ sem i p kids = None
    | None => True
    end
  | PPanic _ => False           (* no index out of range, failed type assertion, ... *)
  | PFuel => True
  end.

Lemma good_result_ok r v : good_result r -> r_out r = POk v ->
  exists t pr0 X0 c, nth_error g 0 = Some pr0 /\ rhs pr0 = [X0] /\ wt g X0 t input /\
                     eval tb sem t 0 [] = EOk v c (r_log r).
Proof. unfold good_result. intros H E. now rewrite E in H. Qed.

Lemma good_result_action_error r e i : good_result r -> r_out r = PErr e -> e_action e = Some i ->
  exists p kids l0, r_log r = l0 ++ [(p, kids)] /\ sem i p kids = None.
Proof. unfold good_result. intros H E Ei. now rewrite E, Ei in H. Qed.

Lemma good_result_no_panic r c : good_result r -> r_out r <> PPanic c.
Proof. unfold good_result. intros H E. now rewrite E in H. Qed.

Lemma error_step_not_recovered fuel st next pos st' next' pos' :
  error_step tb input fuel st next pos <> Recovered st' next' pos'.
Proof.
  intros E. pose proof (error_step_shifts tb input fuel st next pos) as H. rewrite E in H.
  destruct H as (s1 & s2 & Ha & _). exact (NES _ _ Ha).
Qed.

Lemma wf_cells_states cells ts w : wf_cells cells ts w -> Forall (fun c => fst c < nstates tb) cells.
Proof.
  induction 1 as [|s a cells ts w X t wx Hwf IH Htr Hwt]; constructor; [|exact IH].
  simpl. destruct (trans_range _ _ _ SH _ _ _ Htr) as (_ & H & _). exact H.
Qed.

Lemma top_state_lt cells ts w : wf_cells cells ts w -> top_state cells < nstates tb.
Proof.
  intros H. destruct cells as [|[s a] cells]; simpl; [exact (sh_pos _ _ _ SH)|].
  apply wf_cells_states in H. inversion H; subst. assumption.
Qed.

Lemma error_step_safe fuel st next pos :
  st <> [] -> Forall (fun c => fst c < nstates tb) st ->
  match error_step tb input fuel st next pos with
  | NotRecovered st' _ => top st' <> None
  | RecPanic _ => False
  | _ => True
  end.
Proof.
  intros Hne Hst. unfold error_step.
  match goal with |- context [let '(_, _) := ?m in _] => destruct m as [removed st1] eqn:Epr end.
  assert (Hst1 : exists s1 a1 rest, st1 = (s1, a1) :: rest /\ s1 < nstates tb).
  { assert (Hk : exists k, k < length st /\ st1 = skipn k st).
    { destruct (find_recover tb st 0) as [k|] eqn:E; inversion Epr; subst.
      - apply find_recover_lt in E. exists k. split; [lia|reflexivity].
      - exists 0. split; [destruct st1; [congruence|simpl; lia]|reflexivity]. }
    destruct Hk as (k & Hk & ->). destruct (skipn k st) as [|[s1 a1] rest] eqn:E.
    - apply (f_equal (@length _)) in E. rewrite skipn_length in E. simpl in E. lia.
    - exists s1, a1, rest. split; [reflexivity|]. rewrite Forall_forall in Hst.
      apply (Hst (s1, a1)). rewrite <- (firstn_skipn k st), E. apply in_or_app. right. left. reflexivity. }
  destruct Hst1 as (s1 & a1 & rest & -> & Hc). cbn [top].
  destruct (action_at_some g tb an SH s1 (t_err tb) Hc (sh_err _ _ _ SH)) as [x ->].
  destruct x as [[s2|p|]|]; try discriminate.
  destruct (t_gate tb && negb (recover_at tb s1)); [discriminate|].
  destruct (skip_input tb input fuel s2 next pos) as [[[[|] next'] pos']|]; [exact I|discriminate|exact I].
Qed.

Lemma evals_split n (cells : stack) ts calls log :
  length ts = length cells -> evals tb sem (rev ts) 0 [] = EOk (rev (map snd cells)) calls log ->
  exists c1 l1, evals tb sem (rev (skipn n ts)) 0 [] = EOk (rev (map snd (skipn n cells))) c1 l1 /\
                evals tb sem (rev (firstn n ts)) c1 l1 = EOk (rev (map snd (firstn n cells))) calls log.
Proof.
  intros Hl Hev.
  assert (Hts : rev ts = rev (skipn n ts) ++ rev (firstn n ts)).
  { rewrite <- rev_app_distr, firstn_skipn. reflexivity. }
  assert (Hcs : rev (map snd cells) = rev (map snd (skipn n cells)) ++ rev (map snd (firstn n cells))).
  { rewrite <- rev_app_distr, <- map_app, firstn_skipn. reflexivity. }
  rewrite Hts, evals_app, Hcs in Hev.
  destruct (evals tb sem (rev (skipn n ts)) 0 []) as [v1 c1 l1|] eqn:E1; [|discriminate].
  destruct (evals tb sem (rev (firstn n ts)) c1 l1) as [v2 c2 l2|] eqn:E2; [|discriminate].
  inversion Hev as [[Hv Hc Hl']]. subst c2 l2. apply app_inv_length_l in Hv.
  - destruct Hv as [-> ->]. exists c1, l1. split; [reflexivity|exact E2].
  - apply evals_length in E1. rewrite E1, !rev_length, map_length, !skipn_length. lia.
Qed.

Lemma top_app_bottom cells : top (cells ++ [(0, ANil)]) = Some (top_state cells).
Proof. destruct cells as [|[s a] cells]; reflexivity. Qed.

(** The loop is sound whenever [Error()] cannot resume it; no hypothesis on the error column is
    used beyond that. *)
Definition no_recovery : Prop :=
  forall fuel st next pos st' next' pos', error_step tb input fuel st next pos <> Recovered st' next' pos'.

Theorem run_sound_nr : no_recovery -> forall fuel cells ts i calls log,
  Inv cells ts i calls log ->
  good_result (run tb sem input fuel (cells ++ [(0, ANil)]) (tok_at input i) (S i) calls log).
Proof using SH BW INP INR.
  intros NR.
  induction fuel as [|fuel IH]; intros cells ts i calls log [Hwf Hev]; [exact I|].
  set (next := tok_at input i).
  destruct (action_at tb (top_state cells) (ttype next)) as [[[s'|p|]|]|] eqn:Hact.
  - pose proof (tok_at_in _ _ (B_shift _ _ _ BW _ _ _ Hact)) as Hnth.
    cbn [run]. rewrite top_app_bottom, Hact.
    change ((s', ATok next) :: cells ++ [(0, ANil)]) with (((s', ATok next) :: cells) ++ [(0, ANil)]).
    apply (IH ((s', ATok next) :: cells) (Leaf next :: ts)). split.
    + rewrite (firstn_snoc _ _ _ Hnth). apply (wfc_cons s' (ATok next) cells ts _ (T (ttype next)) (Leaf next) [next]).
      * exact Hwf.
      * simpl. rewrite Hact. reflexivity.
      * constructor.
    + cbn [rev map snd]. rewrite evals_app, Hev. cbn [evals eval]. reflexivity.
  - destruct (B_reduce _ _ _ BW _ _ _ Hact) as (Hp0 & prg & Hpg & Hin).
    destruct (proj1 (sh_prods _ _ _ SH p) (ex_intro _ prg Hpg)) as [pw Hpw].
    destruct (sh_prod _ _ _ SH p prg pw Hpg Hpw) as (Hnt & Hlen & _ & _).
    destruct (item_prefix _ _ _ Hwf _ _ _ _ Hin Hpg) as (Hk & ws & w0 & Hwts & Hwf0 & Hw & Hin0).
    rewrite firstn_all in Hwts. set (n := p_len pw) in *.
    assert (Hn : n = length (rhs prg)) by exact Hlen. rewrite <- Hn in *.
    assert (Hlt : (length (cells ++ [(0, ANil)]) <? n) = false).
    { apply Nat.ltb_ge. rewrite app_length. simpl. lia. }
    destruct (evals_split n cells ts _ _ (wf_cells_length _ _ _ Hwf) Hev) as (c1 & l1 & E1 & E2).
    set (kids := rev (map snd (firstn n cells))) in *.
    set (kt := rev (firstn n ts)) in *.
    assert (Hnode : eval tb sem (Node p kt) c1 l1 = apply_action tb sem p kids calls (rev log)).
    { rewrite eval_node, E2. reflexivity. }
    unfold apply_action in Hnode. rewrite Hpw in Hnode.
    destruct (B_demand _ _ _ BW _ _ _ _ Hin0 Hp0 Hpg) as [sg Hsg].
    destruct (goto_nat_inv _ _ _ _ Hsg) as (gz & Hgz & Hgz0 & Hgzn). rewrite <- Hnt in Hgz. symmetry in Hgzn.
    assert (Hstep : forall a calls' log',
              eval tb sem (Node p kt) c1 l1 = EOk a calls' (rev log') ->
              good_result (run tb sem input fuel (((sg, a) :: skipn n cells) ++ [(0, ANil)]) next (S i) calls' log')).
    { intros a calls' log' Hea. apply (IH ((sg, a) :: skipn n cells) (Node p kt :: skipn n ts)). split.
      - rewrite Hw. apply (wfc_cons sg a _ _ _ (NT (lhs prg)) (Node p kt) ws); [exact Hwf0| |].
        + simpl. exact Hsg.
        + econstructor; eauto.
      - cbn [rev map snd]. rewrite evals_app, E1. cbn [evals]. rewrite Hea. reflexivity. }
    cbn [run]. rewrite top_app_bottom, Hact, Hpw. fold n.
    rewrite Hlt, firstn_app_le, skipn_app_le, top_app_bottom by exact Hk. fold kids. destruct (p_act pw) eqn:Hpa.
    + destruct (sem calls p kids) as [a|] eqn:Hsem.
      * rewrite Hgz, Hgz0, Hgzn. apply Hstep. rewrite Hnode. cbn [rev]. reflexivity.
      * unfold good_result, mk_error. rewrite top_app_bottom. cbn [r_out r_log e_action].
        exists p, kids, (rev log). cbn [rev]. auto.
    + rewrite Hgz, Hgz0, Hgzn. apply Hstep. rewrite Hnode. reflexivity.
  - destruct (accept_stack _ _ _ _ Hwf Hact) as (pr0 & X0 & s & v & t & Hp0 & Hr & -> & -> & Hwt).
    destruct (B_accept _ _ _ BW _ _ Hact) as (Ha & _).
    rewrite (firstn_all2 input (tok_at_eof input _ INP Ha)) in Hwt.
    cbn [rev app evals] in Hev. destruct (eval tb sem t 0 []) as [v' c l|] eqn:Et; [|discriminate].
    cbn [top_state] in Hact. cbn [run app top]. rewrite Hact. unfold good_result. cbn [r_out r_log].
    exists t, pr0, X0, calls. inversion Hev; subst. auto.
  - (* Error() does not panic; it gives up on a non-empty stack or runs out of fuel *)
    assert (Hes : cells ++ [(0, ANil)] <> [] /\ Forall (fun c => fst c < nstates tb) (cells ++ [(0, ANil)])).
    { split; [destruct cells; discriminate|]. apply Forall_app. split; [eapply wf_cells_states; eauto|].
      constructor; [exact (sh_pos _ _ _ SH)|constructor]. }
    cbn [run]. rewrite top_app_bottom, Hact.
    destruct Hes as [Hne Hst]. pose proof (error_step_safe (S (length input)) _ next (S i) Hne Hst) as Hes.
    destruct (error_step tb input (S (length input)) (cells ++ [(0, ANil)]) next (S i))
      as [st' next' pos'|st' pos'|c|] eqn:E.
    + exfalso. exact (NR _ _ _ _ _ _ _ E).
    + unfold good_result, mk_error. cbn [r_out]. destruct (top st'); [exact I|congruence].
    + exact Hes.
    + exact I.
  - (* excluded by the shape of the tables *)
    exfalso. destruct (action_at_some g tb an SH (top_state cells) (ttype next)) as [x Hx];
      [eapply top_state_lt; eauto|apply (tok_type_lt g tb an SH input INR)|congruence].
Qed.

Theorem parse_sound_nr : no_recovery -> forall fuel, good_result (parse tb sem input fuel).
Proof using SH BW INP INR.
  intros NR fuel. apply (run_sound_nr NR fuel [] [] 0 0 []). split; [constructor|reflexivity].
Qed.

Theorem parse_sound fuel : good_result (parse tb sem input fuel).
Proof. exact (parse_sound_nr error_step_not_recovered fuel). Qed.

End Sound.

Theorem parse_sound_valid g tb an sem input fuel :
  valid_backward g tb an = true -> no_error_shift tb = true ->
  Forall (fun t => ttype t <> EOFT) input -> Forall (fun t => ttype t < nterms tb) input ->
  good_result g tb sem input (parse tb sem input fuel).
Proof.
  intros HV HN HI HR.
  pose proof (shape_ok_P g tb an (proj1 (valid_backward_parts g tb an HV))) as SH.
  apply (parse_sound g tb an sem input SH).
  - eapply valid_backward_P; eauto.
  - eapply no_error_shift_P; eauto.
  - exact HI.
  - exact HR.
Qed.
