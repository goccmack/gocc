(** Proofs for the compressed action table model: decoding an encoded row (or table) gives it back, and
    decoding does not depend on the order of triples with pairwise distinct indices. *)
From Coq Require Import List Arith Permutation.
From Gocc Require Import LR.Parse LR.ZipTab.
Import ListNotations.

Lemma decode_cell_code : forall a, decode_cell (act_code a) (act_amount a) = Some a.
Proof. intros [s|p|]; reflexivity. Qed.

Lemma set_nth_app : forall (A : Type) (pre : list A) x v rest,
  set_nth (length pre) v (pre ++ x :: rest) = pre ++ v :: rest.
Proof.
  induction pre as [|y pre IH]; intros x v rest; simpl; [reflexivity|].
  rewrite IH. reflexivity.
Qed.

Lemma decode_encode_from : forall r pre,
  fold_left decode_step (encode_from (length pre) r) (pre ++ repeat None (length r))
  = pre ++ r.
Proof.
  induction r as [|[a|] r IH]; intros pre.
  - reflexivity.
  - cbn [encode_from length repeat fold_left].
    unfold decode_step at 2. cbn [fst snd]. rewrite decode_cell_code, set_nth_app.
    specialize (IH (pre ++ [Some a])). rewrite last_length, <- !app_assoc in IH. exact IH.
  - cbn [encode_from length repeat].
    specialize (IH (pre ++ [None])). rewrite last_length, <- !app_assoc in IH. exact IH.
Qed.

(** C12 (action table): the table rebuilt by init() from the encoded triples is the table
    that the uncompressed generator would have emitted. *)
Theorem decode_encode_row : forall r, decode_row (length r) (encode_row r) = r.
Proof. intros r. exact (decode_encode_from r []). Qed.

Theorem decode_encode_table : forall n tab,
  Forall (fun r => length (snd r) = n) tab ->
  decode_table n (encode_table tab) = tab.
Proof.
  intros n tab H. unfold decode_table, encode_table. rewrite map_map.
  induction H as [|[b r] tab Hr H IH]; [reflexivity|].
  cbn [map]. rewrite IH. cbn [fst snd] in Hr |- *. subst n.
  rewrite decode_encode_row. reflexivity.
Qed.

Lemma encode_from_length : forall r j,
  length (encode_from j r) = length (filter (fun c => match c with Some _ => true | None => false end) r).
Proof.
  induction r as [|[a|] r IH]; intros j; simpl; [reflexivity| |]; rewrite IH; reflexivity.
Qed.


Definition idx (t : nat * nat * nat) : nat := fst (fst t).

Lemma encode_from_indices : forall r j t,
  In t (encode_from j r) -> j <= idx t < j + length r.
Proof.
  assert (Hrest : forall r j t, (forall j t, In t (encode_from j r) -> j <= idx t < j + length r) ->
                  In t (encode_from (S j) r) -> j <= idx t < j + S (length r)).
  { intros r j t IH H. rewrite <- Nat.add_succ_comm. destruct (IH _ _ H) as [H1 H2].
    split; [apply Nat.lt_le_incl; exact H1|exact H2]. }
  induction r as [|[a|] r IH]; intros j t H; simpl in H |- *.
  - contradiction.
  - (* a cell that is written: the triple of this cell, or one of the rest *)
    destruct H as [<-|H]; [|exact (Hrest _ _ _ IH H)].
    split; [apply le_n|]. rewrite <- Nat.add_succ_comm. apply Nat.lt_lt_add_r, Nat.lt_succ_diag_r.
  - exact (Hrest _ _ _ IH H).
Qed.

Theorem encode_row_indices : forall r t, In t (encode_row r) -> idx t < length r.
Proof. intros r t H. exact (proj2 (encode_from_indices _ _ _ H)). Qed.

Lemma encode_from_nodup : forall r j, NoDup (map idx (encode_from j r)).
Proof.
  induction r as [|[a|] r IH]; intros j; simpl.
  - constructor.
  - constructor; [|apply IH].
    intros H. apply in_map_iff in H. destruct H as [t [E H]].
    apply encode_from_indices in H. rewrite E in H. exact (Nat.nle_succ_diag_l _ (proj1 H)).
  - apply IH.
Qed.

Theorem encode_row_nodup : forall r, NoDup (map idx (encode_row r)).
Proof. intros r. apply encode_from_nodup. Qed.


Lemma set_nth_comm : forall (A : Type) (l : list A) i j v w,
  i <> j -> set_nth i v (set_nth j w l) = set_nth j w (set_nth i v l).
Proof.
  induction l as [|x l IH]; intros i j v w H; [reflexivity|].
  destruct i as [|i], j as [|j]; simpl; try reflexivity.
  - congruence.
  - rewrite IH by congruence. reflexivity.
Qed.

Lemma decode_step_comm : forall row t1 t2,
  idx t1 <> idx t2 ->
  decode_step (decode_step row t1) t2 = decode_step (decode_step row t2) t1.
Proof.
  intros row [[i1 c1] n1] [[i2 c2] n2] H. unfold idx in H. simpl in H.
  unfold decode_step. cbn [fst snd].
  destruct (decode_cell c1 n1), (decode_cell c2 n2); try reflexivity.
  apply set_nth_comm. congruence.
Qed.

Lemma fold_decode_perm : forall ts ts',
  Permutation ts ts' -> NoDup (map idx ts) ->
  forall row, fold_left decode_step ts row = fold_left decode_step ts' row.
Proof.
  induction 1 as [|x l l' HP IH|x y l|l l' l'' H1 IH1 H2 IH2]; intros ND row.
  - reflexivity.
  - simpl. apply IH. inversion ND; assumption.
  - simpl. rewrite decode_step_comm; [reflexivity|].
    simpl in ND. inversion ND as [|? ? Hn _]; subst.
    intros E. apply Hn. left. symmetry. exact E.
  - rewrite IH1 by exact ND. apply IH2.
    apply (Permutation_NoDup (Permutation_map idx H1)). exact ND.
Qed.

Theorem decode_row_perm : forall n ts ts',
  Permutation ts ts' -> NoDup (map idx ts) -> decode_row n ts = decode_row n ts'.
Proof. intros n ts ts' H ND. unfold decode_row. apply fold_decode_perm; assumption. Qed.

Corollary decode_encode_row_perm : forall r ts,
  Permutation (encode_row r) ts -> decode_row (length r) ts = r.
Proof.
  intros r ts H. rewrite <- (decode_row_perm _ _ _ H (encode_row_nodup r)).
  apply decode_encode_row.
Qed.


Example ex_encode :
  encode_row [None; Some (Shift 4); None; Some (Reduce 7); Some Accept; None]
  = [(1, 2, 4); (3, 1, 7); (4, 0, 0)].
Proof. reflexivity. Qed.

Example ex_decode :
  decode_row 6 [(1, 2, 4); (3, 1, 7); (4, 0, 0)]
  = [None; Some (Shift 4); None; Some (Reduce 7); Some Accept; None].
Proof. reflexivity. Qed.

(** unknown action code: cell left nil; later triples with the same index overwrite *)
Example ex_decode_unknown_and_overwrite :
  decode_row 3 [(0, 5, 9); (1, 1, 2); (1, 2, 8)] = [None; Some (Shift 8); None].
Proof. reflexivity. Qed.

Example ex_roundtrip_empty : decode_row 0 (encode_row []) = [].
Proof. reflexivity. Qed.

Print Assumptions decode_encode_row.
Print Assumptions decode_encode_table.
Print Assumptions decode_row_perm.
Print Assumptions decode_encode_row_perm.
Print Assumptions encode_row_indices.
