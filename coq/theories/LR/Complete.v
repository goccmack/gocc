(** Completeness of the table-driven LR(1) parser model w.r.t. the boolean validator
    [valid_forward]: every parse tree of the start symbol whose yield is the input is
    accepted (no error, no panic, no recovery), within [size t + 1] steps.

    Under the extra (tree-level) condition that production 0 is not used inside the tree
    (implied by the boolean check [start_fresh]: the left-hand side of production 0 occurs
    in no right-hand side), the result value, the action log and the number of scans are
    exactly the post-order evaluation of the tree. *)
From Coq Require Import List ZArith Bool Arith Lia.
From Gocc Require Import LR.Parse LR.Validate LR.ValidateProofs LR.Trees LR.Steps.
Import ListNotations.

Lemma skipn_length_plus {A} : forall j (l : list A), j <= length l -> j + length (skipn j l) = length l.
Proof. intros j l H. rewrite skipn_length. lia. Qed.

Definition alog := list (nat * list attr).

Fixpoint size (t : tree) : nat :=
  match t with
  | Leaf _ => 1
  | Node _ kids => S ((fix sizes (l : list tree) : nat :=
                         match l with [] => 0 | x :: l' => size x + sizes l' end) kids)
  end.
Definition sizes : list tree -> nat :=
  fix sizes (l : list tree) : nat := match l with [] => 0 | x :: l' => size x + sizes l' end.

(** does the tree contain a node built by production 0 ? *)
Fixpoint uses0 (t : tree) : bool :=
  match t with
  | Leaf _ => false
  | Node p kids => Nat.eqb p 0 ||
                   (fix uses0s (l : list tree) : bool :=
                      match l with [] => false | x :: l' => uses0 x || uses0s l' end) kids
  end.
Definition uses0s : list tree -> bool :=
  fix uses0s (l : list tree) : bool := match l with [] => false | x :: l' => uses0 x || uses0s l' end.

Section Complete.
Variable g : grammar.
Variable tb : tables.
Variable an : annot.
Variable sem : nat -> nat -> list attr -> option attr.
Variable input : list token.

(** what a reduction by [p] computes from the children's values [vs] (mirror of [run]) *)
Definition red_result (p : nat) (vs : list attr) (c : nat) (lg : alog) : attr * nat * alog :=
  match nth_error (t_prods tb) p with
  | Some pw =>
    if p_act pw
    then (match sem c p vs with Some a => a | None => ANil end, S c, (p, vs) :: lg)
    else (match vs with [] => ANil | k :: _ => k end, c, lg)
  | None => (ANil, c, lg)
  end.

(** post-order evaluation, threading the call counter and the (reversed) log *)
Fixpoint teval (t : tree) (c : nat) (lg : alog) {struct t} : attr * nat * alog :=
  match t with
  | Leaf tk => (ATok tk, c, lg)
  | Node p kids =>
    let '(vs, c1, lg1) :=
      (fix tevals (l : list tree) (c : nat) (lg : alog) {struct l} : list attr * nat * alog :=
         match l with
         | [] => ([], c, lg)
         | x :: l' => let '(v, c1, lg1) := teval x c lg in
                      let '(vs, c2, lg2) := tevals l' c1 lg1 in (v :: vs, c2, lg2)
         end) kids c lg in
    red_result p vs c1 lg1
  end.
Definition tevals : list tree -> nat -> alog -> list attr * nat * alog :=
  fix tevals (l : list tree) (c : nat) (lg : alog) {struct l} : list attr * nat * alog :=
    match l with
    | [] => ([], c, lg)
    | x :: l' => let '(v, c1, lg1) := teval x c lg in
                 let '(vs, c2, lg2) := tevals l' c1 lg1 in (v :: vs, c2, lg2)
    end.

Lemma teval_node p kids c lg :
  teval (Node p kids) c lg = let '(vs, c1, lg1) := tevals kids c lg in red_result p vs c1 lg1.
Proof. reflexivity. Qed.

Lemma tevals_cons x l c lg :
  tevals (x :: l) c lg = let '(v, c1, lg1) := teval x c lg in
                        let '(vs, c2, lg2) := tevals l c1 lg1 in (v :: vs, c2, lg2).
Proof. reflexivity. Qed.

Definition hd_ty (w : list token) (d : nat) : nat :=
  match w with [] => d | t :: _ => ttype t end.

Lemma tok_at_skipn i t r : skipn i input = t :: r -> tok_at input i = t.
Proof. unfold tok_at. apply nth_skipn_hd. Qed.

Lemma tok_at_hd i w r :
  skipn i input = w ++ r -> ttype (tok_at input i) = hd_ty w (ttype (tok_at input (i + length w))).
Proof.
  destruct w as [|t w]; simpl; intros H.
  - now rewrite Nat.add_0_r.
  - now rewrite (tok_at_skipn _ _ _ H).
Qed.

Hypothesis V : valid_forward g tb an = true.
Hypothesis sem_total : forall i p kids, sem i p kids <> None.

Lemma V_parts : shape_ok g tb an = true /\ items_wf g tb an = true /\ f_first g an = true /\
                f_start an = true /\ f_closure g tb an = true /\ f_goto g tb an = true.
Proof.
  pose proof V as H. unfold valid_forward in H.
  do 5 (apply andb_prop in H; destruct H as [H ?]). repeat split; assumption.
Qed.

Lemma V_shape : shape_P g tb an.
Proof. apply shape_ok_P, V_parts. Qed.

Lemma items_lt s it : In it (items_of an s) -> s < nstates tb.
Proof. apply (items_of_range g tb an V_shape). Qed.

Lemma prods_spec p pr : nth_error g p = Some pr ->
  exists pw, nth_error (t_prods tb) p = Some pw /\ p_nt pw = lhs pr /\ p_len pw = length (rhs pr).
Proof.
  intros Hp. destruct (proj1 (sh_prods _ _ _ V_shape p) (ex_intro _ pr Hp)) as [pw Hpw].
  exists pw. split; [exact Hpw|]. destruct (sh_prod _ _ _ V_shape p pr pw Hp Hpw) as (H1 & H2 & _). auto.
Qed.

Lemma prods_of_spec q prq : nth_error g q = Some prq -> In q (prods_of g (lhs prq)).
Proof.
  intros Hq. unfold prods_of.
  assert (Hlt : q < length g) by (apply nth_error_Some; congruence).
  pose proof (nth_error_combine _ _ _ _ _ (nth_error_seq0 _ _ Hlt) Hq) as Hc.
  apply nth_error_In in Hc.
  change q with (fst (q, prq)) at 1. apply in_map. apply filter_In. split; [assumption|].
  simpl. apply Nat.eqb_refl.
Qed.

Lemma start_spec : In (0, 0, EOFT) (items_of an 0).
Proof. destruct V_parts as (_ & _ & _ & H & _). apply mem_item_In. exact H. Qed.

Lemma closure_spec s p k la pr B q prq b :
  In (p, k, la) (items_of an s) -> nth_error g p = Some pr -> nth_error (rhs pr) k = Some (NT B) ->
  nth_error g q = Some prq -> lhs prq = B ->
  In b (first_seq an (skipn (S k) (rhs pr)) la) ->
  In (q, 0, b) (items_of an s).
Proof.
  intros Hin Hp Hk Hq HB Hb. destruct V_parts as (_ & _ & _ & _ & Hf & _).
  pose proof (forall_items_P g tb an V_shape _ Hf s _ Hin) as Hc. cbv beta iota in Hc.
  rewrite Hp, Hk in Hc. rewrite forallb_forall in Hc.
  subst B. specialize (Hc _ (prods_of_spec _ _ Hq)).
  rewrite forallb_forall in Hc. apply mem_item_In. apply Hc. exact Hb.
Qed.

Lemma goto_spec s p k la pr X :
  In (p, k, la) (items_of an s) -> nth_error g p = Some pr -> nth_error (rhs pr) k = Some X ->
  exists s', trans tb s X = Some s' /\ In (p, S k, la) (items_of an s').
Proof.
  intros Hin Hp Hk. destruct V_parts as (_ & _ & _ & _ & _ & Hf).
  pose proof (forall_items_P g tb an V_shape _ Hf s _ Hin) as Hc. cbv beta iota in Hc.
  rewrite Hp, Hk in Hc. destruct (trans tb s X) as [s'|]; [|discriminate].
  exists s'. split; [reflexivity|]. now apply mem_item_In.
Qed.

Lemma complete_spec s p k la pr :
  In (p, k, la) (items_of an s) -> nth_error g p = Some pr -> nth_error (rhs pr) k = None ->
  (p <> 0 /\ action_at tb s la = Some (Some (Reduce p))) \/
  (p = 0 /\ la = EOFT /\ action_at tb s la = Some (Some Accept)).
Proof.
  intros Hin Hp Hk. destruct V_parts as (_ & _ & _ & _ & _ & Hf).
  pose proof (forall_items_P g tb an V_shape _ Hf s _ Hin) as Hc. cbv beta iota in Hc.
  rewrite Hp, Hk in Hc.
  destruct (action_at tb s la) as [[[s'|q|]|]|]; try discriminate.
  - apply andb_true_iff in Hc. destruct Hc as [H1 H2]. apply Nat.eqb_eq in H1. subst q.
    apply negb_true_iff, Nat.eqb_neq in H2. left. split; [assumption|reflexivity].
  - apply andb_true_iff in Hc. destruct Hc as [H1 H2]. apply Nat.eqb_eq in H1, H2.
    right. repeat split; assumption.
Qed.

Lemma first_rule pr : In pr g ->
  (forallb (nullable_sym an) (rhs pr) = true -> nullable_nt an (lhs pr) = true) /\
  first_closed_rhs an (lhs pr) (rhs pr) = true.
Proof.
  intros Hin. destruct V_parts as (_ & _ & Hf & _). unfold f_first in Hf.
  rewrite forallb_forall in Hf. specialize (Hf _ Hin). apply andb_true_iff in Hf.
  destruct Hf as [H1 H2]. split; [|assumption].
  intros Hn. now rewrite Hn in H1.
Qed.

Lemma first_sound :
  (forall X t w, wt g X t w ->
     (w = [] -> nullable_sym an X = true) /\
     (forall t0 w', w = t0 :: w' -> In (ttype t0) (first_sym an X))) /\
  (forall gamma ts w, wts g gamma ts w ->
     (w = [] -> forallb (nullable_sym an) gamma = true) /\
     (forall n, first_closed_rhs an n gamma = true ->
        forall t0 w', w = t0 :: w' -> In (ttype t0) (first_nt an n)) /\
     (forall la, In (hd_ty w la) (first_seq an gamma la))).
Proof.
  apply wt_wts_min.
  - intros t. split; [discriminate|]. intros t0 w' H. inversion H; subst. simpl. auto.
  - intros p pr kids w Hp _ (IH1 & IH2 & _).
    destruct (first_rule pr (nth_error_In _ _ Hp)) as [Hn Hf]. simpl. split.
    + intros Hw. apply Hn. apply IH1. exact Hw.
    + intros t0 w' Hw. eapply IH2; eauto.
  - split; [reflexivity|]. split; [discriminate|]. intros la. simpl. auto.
  - intros X ss t ts w1 w2 _ (IHn & IHf) _ (IHsn & IHsf & IHsq). split; [|split].
    + intros Hw. apply app_eq_nil in Hw. destruct Hw as [-> ->]. simpl.
      rewrite IHn, IHsn; reflexivity.
    + intros n Hc t0 w' Hw. simpl in Hc. apply andb_true_iff in Hc. destruct Hc as [Hc1 Hc2].
      destruct w1 as [|t1 w1].
      * rewrite (IHn eq_refl) in Hc2. simpl in Hw. eapply IHsf; eauto.
      * simpl in Hw. inversion Hw; subst t1.
        rewrite forallb_forall in Hc1. apply mem_nat_In. apply Hc1. eapply IHf; reflexivity.
    + intros la. simpl. apply in_or_app. destruct w1 as [|t1 w1].
      * right. rewrite (IHn eq_refl). simpl. apply IHsq.
      * left. simpl. eapply IHf; reflexivity.
Qed.

Lemma first_seq_sound gamma ts w la : wts g gamma ts w -> In (hd_ty w la) (first_seq an gamma la).
Proof. intros H. apply (proj2 first_sound) in H. destruct H as (_ & _ & H). apply H. Qed.

(** the parser configuration: look-ahead = token number [i], [S i] scans done *)
Definition crun (fuel : nat) (st : stack) (i calls : nat) (lg : alog) : result :=
  run tb sem input fuel st (tok_at input i) (S i) calls lg.

Lemma step_shift st s i calls lg s' :
  top st = Some s -> action_at tb s (ttype (tok_at input i)) = Some (Some (Shift s')) ->
  step tb sem input (Build_cfg st i calls lg) = Some (Build_cfg ((s', ATok (tok_at input i)) :: st) (S i) calls lg).
Proof.
  intros Ht Ha. unfold step. cbn [c_st c_i c_calls c_log]. rewrite Ht, Ha. reflexivity.
Qed.

Lemma step_reduce cells st s'' s i calls lg p pw z v c' lg' :
  top (cells ++ st) = Some s'' ->
  action_at tb s'' (ttype (tok_at input i)) = Some (Some (Reduce p)) ->
  nth_error (t_prods tb) p = Some pw -> length cells = p_len pw ->
  top st = Some s -> goto_at tb s (p_nt pw) = Some z -> (z <? 0)%Z = false ->
  red_result p (rev (map snd cells)) calls lg = (v, c', lg') ->
  step tb sem input (Build_cfg (cells ++ st) i calls lg) = Some (Build_cfg ((Z.to_nat z, v) :: st) i c' lg').
Proof.
  intros Ht Ha Hpw Hlen Hts Hg Hz Hr.
  assert (Hlt : (length (cells ++ st) <? p_len pw) = false).
  { apply Nat.ltb_ge. rewrite app_length. lia. }
  unfold red_result in Hr. rewrite Hpw in Hr.
  unfold step. cbn [c_st c_i c_calls c_log].
  rewrite Ht, Ha, Hpw, Hlt, <- Hlen, firstn_length_app, skipn_length_app, Hts, Hg, Hz.
  destruct (p_act pw); [|now inversion Hr].
  destruct (sem calls p (rev (map snd cells))) as [a|] eqn:Hs; [now inversion Hr|now apply sem_total in Hs].
Qed.

(** The simulation is stated on [steps], whose moves are Shift and Reduce only, so that it also
    says that [error_step] is never called on the way; the [run]-level form follows by
    [crunc_steps].  If production 0 occurs inside the tree the tables accept where it would be
    reduced: fewer than [n] moves lead to an Accept entry. *)
Definition early_steps (n : nat) (c : cfg) : Prop :=
  exists m c' s, m < n /\ steps tb sem input m c = Some c' /\ top (c_st c') = Some s /\
    action_at tb s (ttype (tok_at input (c_i c'))) = Some (Some Accept).

Definition early (n : nat) (st : stack) (i calls : nat) (lg : alog) : Prop :=
  exists m v, m <= n /\ forall fuel, r_out (crun (m + fuel) st i calls lg) = POk v.

Lemma early_steps_early n st i calls lg : early_steps n (Build_cfg st i calls lg) -> early n st i calls lg.
Proof.
  intros (m & c' & s & Hm & Hst & Ht & Ha). destruct (accept_run tb sem input c' s Ht Ha) as (v & _ & Hr).
  exists (S m), v. split; [exact Hm|]. intros fuel.
  change (r_out (crunc tb sem input (S (m + fuel)) (Build_cfg st i calls lg)) = POk v).
  rewrite <- Nat.add_succ_r, (crunc_steps tb sem input _ _ _ _ Hst), Hr. reflexivity.
Qed.

Lemma early_steps_le n n' c : early_steps n c -> n <= n' -> early_steps n' c.
Proof. intros (m & c' & s & Hm & H) Hn. exists m, c', s. split; [lia|exact H]. Qed.

Lemma early_steps_after k n c c1 : steps tb sem input k c = Some c1 -> early_steps n c1 -> early_steps (k + n) c.
Proof.
  intros Hk (m & c' & s & Hm & Hst & H). exists (k + m), c', s.
  split; [lia|]. split; [exact (steps_app tb sem input _ _ _ _ _ Hk Hst)|exact H].
Qed.

(** [R n c c']: [c] leads to [c'] in [n] moves; [E n c]: from [c] the tables accept early, within
    [n] moves.  The top state [s] holds an item with [X] after the dot; the input from token [i] on
    is the yield [w] followed by [r], and the token after [w] is in FIRST of what follows [X] in the
    item: that makes the closure items and the final reduction the tree's own. *)
Definition sim_tree_on (R : nat -> cfg -> cfg -> Prop) (E : nat -> cfg -> Prop)
    (X : sym) (t : tree) (w : list token) : Prop :=
  forall st s p k la pr i r calls lg s',
    top st = Some s -> In (p, k, la) (items_of an s) -> nth_error g p = Some pr ->
    nth_error (rhs pr) k = Some X -> skipn i input = w ++ r ->
    In (ttype (tok_at input (i + length w))) (first_seq an (skipn (S k) (rhs pr)) la) ->
    trans tb s X = Some s' ->
    (forall v c' lg', teval t calls lg = (v, c', lg') ->
       R (size t) (Build_cfg st i calls lg) (Build_cfg ((s', v) :: st) (i + length w) c' lg'))
    \/ (uses0 t = true /\ E (size t) (Build_cfg st i calls lg)).

Definition sim_trees_on (R : nat -> cfg -> cfg -> Prop) (E : nat -> cfg -> Prop)
    (gamma : list sym) (ts : list tree) (w : list token) : Prop :=
  forall st s q prq j b i r calls lg,
    top st = Some s -> In (q, j, b) (items_of an s) -> nth_error g q = Some prq ->
    skipn j (rhs prq) = gamma -> skipn i input = w ++ r ->
    ttype (tok_at input (i + length w)) = b ->
    (forall vs c' lg', tevals ts calls lg = (vs, c', lg') ->
       exists cells s'', length cells = length gamma /\ rev (map snd cells) = vs /\
         top (cells ++ st) = Some s'' /\ In (q, j + length gamma, b) (items_of an s'') /\
         R (sizes ts) (Build_cfg st i calls lg) (Build_cfg (cells ++ st) (i + length w) c' lg'))
    \/ (uses0s ts = true /\ E (sizes ts) (Build_cfg st i calls lg)).

Lemma sim_on_weaken (R R' : nat -> cfg -> cfg -> Prop) (E E' : nat -> cfg -> Prop) :
  (forall n c c', R n c c' -> R' n c c') -> (forall n c, E n c -> E' n c) ->
  (forall X t w, sim_tree_on R E X t w -> sim_tree_on R' E' X t w) /\
  (forall gamma ts w, sim_trees_on R E gamma ts w -> sim_trees_on R' E' gamma ts w).
Proof.
  intros HR HE. split.
  - intros X t w H st s p k la pr i r calls lg s' H1 H2 H3 H4 H5 H6 H7.
    destruct (H st s p k la pr i r calls lg s' H1 H2 H3 H4 H5 H6 H7) as [HA|[Hu HB]]; [left|right; auto].
    intros v c' lg' Hev. exact (HR _ _ _ (HA _ _ _ Hev)).
  - intros gamma ts w H st s q prq j b i r calls lg H1 H2 H3 H4 H5 H6.
    destruct (H st s q prq j b i r calls lg H1 H2 H3 H4 H5 H6) as [HA|[Hu HB]]; [left|right; auto].
    intros vs c' lg' Hev. destruct (HA _ _ _ Hev) as (cells & s'' & Ha & Hb & Hc & Hd & Hst).
    exists cells, s''. auto 6.
Qed.

Definition moves (n : nat) (c c' : cfg) : Prop := steps tb sem input n c = Some c'.

Lemma simulation_steps :
  (forall X t w, wt g X t w -> sim_tree_on moves early_steps X t w) /\
  (forall gamma ts w, wts g gamma ts w -> sim_trees_on moves early_steps gamma ts w).
Proof.
  unfold moves. apply wt_wts_min.
  - (* leaf: shift *)
    intros t st s p k la pr i r calls lg s' Htop Hin Hp Hk Hsk Hla Htr.
    left. intros v c' lg' Hev. cbn [teval] in Hev. inversion Hev; subst v c' lg'.
    cbn [app] in Hsk. pose proof (tok_at_skipn _ _ _ Hsk) as Htok.
    cbn [trans] in Htr.
    destruct (action_at tb s (ttype t)) as [[[s1| |]|]|] eqn:Ha; try discriminate.
    inversion Htr; subst s1.
    change (size (Leaf t)) with 1. cbn [steps].
    rewrite (step_shift st s i calls lg s' Htop) by (rewrite Htok; exact Ha).
    rewrite Htok. cbn [length]. rewrite Nat.add_1_r. reflexivity.
  - (* node: closure, children, reduce *)
    intros p' pr' kids w Hp' Hwts IH st s p k la pr i r calls lg s' Htop Hin Hp Hk Hsk Hla Htr.
    set (b := ttype (tok_at input (i + length w))) in *.
    pose proof (closure_spec _ _ _ _ _ _ _ _ b Hin Hp Hk Hp' eq_refl Hla) as Hin0.
    change (size (Node p' kids)) with (S (sizes kids)).
    change (uses0 (Node p' kids)) with (Nat.eqb p' 0 || uses0s kids).
    destruct (IH st s p' pr' 0 b i r calls lg Htop Hin0 Hp' eq_refl Hsk eq_refl) as [HA|[Hu HB]].
    2:{ right. split; [rewrite Hu; apply orb_true_r|]. apply (early_steps_le _ _ _ HB). lia. }
    destruct (tevals kids calls lg) as [[vs c1] lg1] eqn:Ev.
    destruct (HA _ _ _ eq_refl) as (cells & s'' & Hlen & Hrev & Htop' & Hitem & Hrun).
    cbn [Nat.add] in Hitem.
    assert (Hnone : nth_error (rhs pr') (length (rhs pr')) = None) by (apply nth_error_None; lia).
    destruct (complete_spec _ _ _ _ _ Hitem Hp' Hnone) as [[Hne Hact]|(H0 & Hb & Hact)].
    + left. intros v c' lg' Hev. rewrite teval_node, Ev in Hev.
      destruct (prods_spec _ _ Hp') as (pw & Hpw & Hnt & Hpl).
      destruct (goto_nat_inv _ _ _ _ Htr) as (z & Hg & Hz & ->).
      apply (steps_snoc tb sem input _ _ _ _ Hrun).
      rewrite <- Hrev in Hev.
      apply (step_reduce cells st s'' s _ c1 lg1 p' pw z v c' lg'); auto; congruence.
    + (* production 0 inside the tree: the tables accept here *)
      right. subst p'. split; [reflexivity|].
      exists (sizes kids), (Build_cfg (cells ++ st) (i + length w) c1 lg1), s''. auto.
  - intros st s q prq j b i r calls lg Htop Hin Hq Hsk Hin' Hb.
    left. intros vs c' lg' Hev. cbn [tevals] in Hev. inversion Hev; subst vs c' lg'.
    exists [], s. cbn [length app sizes steps]. rewrite !Nat.add_0_r. auto.
  - (* first child, then the others *)
    intros X ss t ts w1 w2 _ IHt Hwts IHts st s q prq j b i r calls lg Htop Hin Hq Hsk Hinp Hb.
    destruct (skipn_cons_inv _ _ _ _ Hsk) as [Hj Hsk'].
    rewrite app_length, Nat.add_assoc in Hb.
    rewrite <- app_assoc in Hinp.
    pose proof (skipn_app_shift _ _ _ _ Hinp) as Hinp2.
    destruct (goto_spec _ _ _ _ _ _ Hin Hq Hj) as (s' & Htr & Hin').
    assert (Hla : In (ttype (tok_at input (i + length w1))) (first_seq an (skipn (S j) (rhs prq)) b)).
    { rewrite Hsk'. rewrite (tok_at_hd _ _ _ Hinp2), Hb. eapply first_seq_sound; eauto. }
    change (sizes (t :: ts)) with (size t + sizes ts).
    change (uses0s (t :: ts)) with (uses0 t || uses0s ts).
    destruct (IHt st s q j b prq i (w2 ++ r) calls lg s' Htop Hin Hq Hj Hinp Hla Htr) as [HA|[Hu HB]].
    2:{ right. split; [rewrite Hu; reflexivity|]. apply (early_steps_le _ _ _ HB). lia. }
    destruct (teval t calls lg) as [[v c1] lg1] eqn:Ev.
    specialize (HA _ _ _ eq_refl).
    destruct (IHts ((s', v) :: st) s' q prq (S j) b (i + length w1) r c1 lg1
                eq_refl Hin' Hq Hsk' Hinp2 Hb) as [HA2|[Hu HB]].
    2:{ right. split; [rewrite Hu; apply orb_true_r|]. exact (early_steps_after _ _ _ _ HA HB). }
    left. intros vs c' lg' Hev. rewrite tevals_cons, Ev in Hev.
    destruct (tevals ts c1 lg1) as [[vs2 c2] lg2] eqn:Ev2. inversion Hev; subst vs c' lg'.
    destruct (HA2 _ _ _ eq_refl) as (cells & s'' & Hlen & Hrev & Htop' & Hitem & Hrun).
    exists (cells ++ [(s', v)]), s''. rewrite <- app_assoc. cbn [app length].
    split; [rewrite app_length; cbn [length]; lia|].
    split; [rewrite map_app, rev_app_distr; cbn [map rev app snd]; now rewrite Hrev|].
    split; [exact Htop'|].
    split; [now rewrite Nat.add_succ_r|].
    rewrite app_length, Nat.add_assoc. exact (steps_app tb sem input _ _ _ _ _ HA Hrun).
Qed.

Definition sim_tree (X : sym) (t : tree) (w : list token) : Prop :=
  forall st s p k la pr i r calls lg s',
    top st = Some s -> In (p, k, la) (items_of an s) -> nth_error g p = Some pr ->
    nth_error (rhs pr) k = Some X -> skipn i input = w ++ r ->
    In (ttype (tok_at input (i + length w))) (first_seq an (skipn (S k) (rhs pr)) la) ->
    trans tb s X = Some s' ->
    (forall v c' lg', teval t calls lg = (v, c', lg') ->
       forall fuel, crun (size t + fuel) st i calls lg =
                    crun fuel ((s', v) :: st) (i + length w) c' lg')
    \/ (uses0 t = true /\ early (size t) st i calls lg).

Definition sim_trees (gamma : list sym) (ts : list tree) (w : list token) : Prop :=
  forall st s q prq j b i r calls lg,
    top st = Some s -> In (q, j, b) (items_of an s) -> nth_error g q = Some prq ->
    skipn j (rhs prq) = gamma -> skipn i input = w ++ r ->
    ttype (tok_at input (i + length w)) = b ->
    (forall vs c' lg', tevals ts calls lg = (vs, c', lg') ->
       exists cells s'', length cells = length gamma /\ rev (map snd cells) = vs /\
         top (cells ++ st) = Some s'' /\ In (q, j + length gamma, b) (items_of an s'') /\
         forall fuel, crun (sizes ts + fuel) st i calls lg =
                      crun fuel (cells ++ st) (i + length w) c' lg')
    \/ (uses0s ts = true /\ early (sizes ts) st i calls lg).

Lemma simulation :
  (forall X t w, wt g X t w -> sim_tree X t w) /\
  (forall gamma ts w, wts g gamma ts w -> sim_trees gamma ts w).
Proof.
  destruct simulation_steps as [H1 H2].
  destruct (sim_on_weaken moves (fun n c c' => forall fuel, crunc tb sem input (n + fuel) c = crunc tb sem input fuel c')
              early_steps (fun n c => early n (c_st c) (c_i c) (c_calls c) (c_log c))) as [W1 W2].
  - intros n c c' H fuel. exact (crunc_steps tb sem input n fuel c c' H).
  - intros n [st i calls lg]. apply early_steps_early.
  - split; [intros X t w H; exact (W1 _ _ _ (H1 _ _ _ H))|intros gamma ts w H; exact (W2 _ _ _ (H2 _ _ _ H))].
Qed.

Section Top.
Variables (pr0 : prod) (X0 : sym) (t : tree).
Hypothesis Hpr0 : nth_error g 0 = Some pr0.
Hypothesis Hrhs0 : rhs pr0 = [X0].
Hypothesis Hwt : wt g X0 t input.

Lemma top_steps :
  (exists s', action_at tb s' EOFT = Some (Some Accept) /\
     forall v c' lg', teval t 0 [] = (v, c', lg') ->
       steps tb sem input (size t) cfg0 = Some (Build_cfg [(s', v); (0, ANil)] (length input) c' lg'))
  \/ (uses0 t = true /\ early_steps (size t) cfg0).
Proof.
  pose proof start_spec as Hin.
  assert (Hk : nth_error (rhs pr0) 0 = Some X0) by (now rewrite Hrhs0).
  destruct (goto_spec _ _ _ _ _ _ Hin Hpr0 Hk) as (s' & Htr & Hin').
  assert (Hsk : skipn 0 input = input ++ []) by (now rewrite app_nil_r).
  assert (Heof : ttype (tok_at input (0 + length input)) = EOFT).
  { apply tok_at_overflow, Nat.le_refl. }
  assert (Hla : In (ttype (tok_at input (0 + length input)))
                   (first_seq an (skipn 1 (rhs pr0)) EOFT)).
  { rewrite Heof, Hrhs0. left. reflexivity. }
  destruct (proj1 simulation_steps _ _ _ Hwt [(0, ANil)] 0 0 0 EOFT pr0 0 [] 0 [] s'
              eq_refl Hin Hpr0 Hk Hsk Hla Htr) as [HA|HB]; [left|right; exact HB].
  exists s'. split; [|exact HA].
  assert (Hnone : nth_error (rhs pr0) 1 = None) by (now rewrite Hrhs0).
  destruct (complete_spec _ _ _ _ _ Hin' Hpr0 Hnone) as [[Hne _]|(_ & _ & Hact)]; [congruence|exact Hact].
Qed.

Lemma top_level :
  (forall fuel, size t + 1 <= fuel ->
     parse tb sem input fuel =
       let '(v, _, lg) := teval t 0 [] in
       {| r_out := POk v; r_log := rev lg; r_scans := S (length input) |})
  \/ (uses0 t = true /\ early (size t) [(0, ANil)] 0 0 []).
Proof.
  destruct top_steps as [(s' & Hact & HA)|[Hu HB]];
    [left|right; split; [exact Hu|exact (early_steps_early _ _ _ _ _ HB)]].
  intros fuel Hfuel. destruct (teval t 0 []) as [[v c'] lg'].
  replace fuel with (size t + S (fuel - size t - 1)) by lia.
  rewrite parse_crunc, (crunc_steps tb sem input _ _ _ _ (HA _ _ _ eq_refl)).
  destruct (accept_run tb sem input (Build_cfg [(s', v); (0, ANil)] (length input) c' lg') s' eq_refl)
    as (v' & Hv' & Hr).
  { cbn [c_i]. rewrite (tok_at_overflow input _ (Nat.le_refl _)). exact Hact. }
  rewrite Hr. inversion Hv'. reflexivity.
Qed.

Theorem complete :
  forall fuel, size t + 1 <= fuel -> exists v, r_out (parse tb sem input fuel) = POk v.
Proof.
  intros fuel Hfuel. destruct top_level as [HA|[_ (m & v & Hm & HB)]].
  - rewrite (HA fuel Hfuel). destruct (teval t 0 []) as [[v c'] lg']. exists v. reflexivity.
  - exists v. replace fuel with (m + (fuel - m)) by lia. apply HB.
Qed.

Theorem complete_exact :
  uses0 t = false ->
  forall fuel, size t + 1 <= fuel ->
    parse tb sem input fuel =
      let '(v, _, lg) := teval t 0 [] in
      {| r_out := POk v; r_log := rev lg; r_scans := S (length input) |}.
Proof.
  intros Hu. destruct top_level as [HA|[Hu' _]]; [exact HA|congruence].
Qed.
End Top.

End Complete.

(** the left-hand side of production 0 (the augmented start symbol) occurs in no right-hand side *)
Definition start_fresh (g : grammar) : bool :=
  match g with
  | [] => true
  | pr0 :: _ => forallb (fun pr => negb (existsb (sym_eqb (NT (lhs pr0))) (rhs pr))) g
  end.

Lemma sym_eqb_refl X : sym_eqb X X = true.
Proof. destruct X; simpl; apply Nat.eqb_refl. Qed.

Lemma start_fresh_spec g pr0 pr :
  start_fresh g = true -> nth_error g 0 = Some pr0 -> In pr g -> ~ In (NT (lhs pr0)) (rhs pr).
Proof.
  intros Hf H0 Hin Hc. destruct g as [|pr0' g']; [discriminate|].
  simpl in H0. inversion H0; subst pr0'. unfold start_fresh in Hf.
  rewrite forallb_forall in Hf. specialize (Hf _ Hin). apply negb_true_iff in Hf.
  assert (He : existsb (sym_eqb (NT (lhs pr0))) (rhs pr) = true).
  { apply existsb_exists. exists (NT (lhs pr0)). split; [assumption|apply sym_eqb_refl]. }
  congruence.
Qed.

Lemma fresh_no_uses0 g pr0 :
  start_fresh g = true -> nth_error g 0 = Some pr0 ->
  (forall X t w, wt g X t w -> X <> NT (lhs pr0) -> uses0 t = false) /\
  (forall gamma ts w, wts g gamma ts w -> ~ In (NT (lhs pr0)) gamma -> uses0s ts = false).
Proof.
  intros Hf H0. apply wt_wts_min.
  - reflexivity.
  - intros p pr kids w Hp _ IH Hne.
    change (uses0 (Node p kids)) with (Nat.eqb p 0 || uses0s kids).
    rewrite IH by (eapply start_fresh_spec; eauto using nth_error_In).
    destruct p as [|p]; [|reflexivity]. exfalso. apply Hne. congruence.
  - reflexivity.
  - intros X ss t ts w1 w2 _ IHt _ IHts Hni.
    change (uses0s (t :: ts)) with (uses0 t || uses0s ts).
    rewrite IHt, IHts; [reflexivity| |]; intros Hc; apply Hni; simpl; auto.
Qed.

Lemma fresh_top_no_uses0 g pr0 X0 t w :
  start_fresh g = true -> nth_error g 0 = Some pr0 -> rhs pr0 = [X0] -> wt g X0 t w -> uses0 t = false.
Proof.
  intros Hf H0 Hr Hwt. apply (proj1 (fresh_no_uses0 g pr0 Hf H0) _ _ _ Hwt). intros ->.
  apply (start_fresh_spec g pr0 pr0 Hf H0 (nth_error_In _ _ H0)). rewrite Hr. left. reflexivity.
Qed.

Theorem lr_complete :
  forall g tb an sem input,
    valid_forward g tb an = true ->
    (forall i p kids, sem i p kids <> None) ->
    forall pr0 X0 t, nth_error g 0 = Some pr0 -> rhs pr0 = [X0] -> wt g X0 t input ->
    forall fuel, size t + 1 <= fuel -> exists v, r_out (parse tb sem input fuel) = POk v.
Proof. intros g tb an sem input V Hs pr0 X0 t. exact (complete g tb an sem input V Hs pr0 X0 t). Qed.

Theorem lr_complete_exact :
  forall g tb an sem input,
    valid_forward g tb an = true -> start_fresh g = true ->
    (forall i p kids, sem i p kids <> None) ->
    forall pr0 X0 t, nth_error g 0 = Some pr0 -> rhs pr0 = [X0] -> wt g X0 t input ->
    forall fuel, size t + 1 <= fuel ->
      parse tb sem input fuel =
        let '(v, _, lg) := teval tb sem t 0 [] in
        {| r_out := POk v; r_log := rev lg; r_scans := S (length input) |}.
Proof.
  intros g tb an sem input V Hf Hs pr0 X0 t H0 Hr Hwt.
  exact (complete_exact g tb an sem input V Hs pr0 X0 t H0 Hr Hwt (fresh_top_no_uses0 g pr0 X0 t input Hf H0 Hr Hwt)).
Qed.

Corollary lr_complete_fuel0 :
  forall g tb an sem input,
    valid_forward g tb an = true ->
    (forall i p kids, sem i p kids <> None) ->
    forall pr0 X0 t, nth_error g 0 = Some pr0 -> rhs pr0 = [X0] -> wt g X0 t input ->
    exists fuel0, forall fuel, fuel0 <= fuel -> exists v, r_out (parse tb sem input fuel) = POk v.
Proof. intros g tb an sem input V Hs pr0 X0 t H0 Hr Hwt. exists (size t + 1). exact (lr_complete g tb an sem input V Hs pr0 X0 t H0 Hr Hwt). Qed.

Print Assumptions lr_complete.
Print Assumptions lr_complete_fuel0.
Print Assumptions lr_complete_exact.
