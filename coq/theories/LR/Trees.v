(** Parse trees of a grammar and their yields. *)
From Coq Require Import List.
From Gocc Require Import LR.Parse.
Import ListNotations.

Inductive tree := Leaf (t : token) | Node (p : nat) (kids : list tree).

Inductive wt (g : grammar) : sym -> tree -> list token -> Prop :=
| wt_leaf t : wt g (T (ttype t)) (Leaf t) [t]
| wt_node p pr kids w : nth_error g p = Some pr -> wts g (rhs pr) kids w -> wt g (NT (lhs pr)) (Node p kids) w
with wts (g : grammar) : list sym -> list tree -> list token -> Prop :=
| wts_nil : wts g [] [] []
| wts_cons s ss t ts w1 w2 : wt g s t w1 -> wts g ss ts w2 -> wts g (s :: ss) (t :: ts) (w1 ++ w2).

Scheme wt_ind2 := Induction for wt Sort Prop
  with wts_ind2 := Induction for wts Sort Prop.
Combined Scheme wt_wts_ind from wt_ind2, wts_ind2.

Scheme wt_min := Minimality for wt Sort Prop
  with wts_min := Minimality for wts Sort Prop.
Combined Scheme wt_wts_min from wt_min, wts_min.
