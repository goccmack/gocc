(** Derivations at the level of token TYPES (no trees, no token identities), their equivalence
    with the parse trees of Trees.v, canonical inputs, sentences and viable prefixes. *)
From Coq Require Import List Arith Lia Bool.
From Gocc Require Import LR.Parse LR.Trees.
Import ListNotations.

(** * Canonical inputs: the [i]-th token has identity [i] *)
Fixpoint canon_from (i : nat) (tys : list nat) : list token :=
  match tys with
  | [] => []
  | ty :: r => {| ttype := ty; tid := i |} :: canon_from (S i) r
  end.
Definition canon (tys : list nat) : list token := canon_from 0 tys.

Lemma canon_from_types i tys : map ttype (canon_from i tys) = tys.
Proof. revert i. induction tys as [|ty r IH]; intros i; simpl; [reflexivity|]. now rewrite IH. Qed.

Lemma canon_types tys : map ttype (canon tys) = tys.
Proof. apply canon_from_types. Qed.

Lemma canon_from_length i tys : length (canon_from i tys) = length tys.
Proof. revert i. induction tys as [|ty r IH]; intros i; simpl; [reflexivity|]. now rewrite IH. Qed.

Lemma canon_length tys : length (canon tys) = length tys.
Proof. apply canon_from_length. Qed.

Lemma canon_from_nth : forall tys i j d,
  j < length tys -> nth j (canon_from i tys) d = {| ttype := nth j tys EOFT; tid := i + j |}.
Proof.
  induction tys as [|ty r IH]; intros i j d Hj; simpl in *; [lia|].
  destruct j as [|j].
  - now rewrite Nat.add_0_r.
  - rewrite IH by lia. f_equal. lia.
Qed.

Lemma tok_at_canon tys j : tok_at (canon tys) j = {| ttype := nth j tys EOFT; tid := j |}.
Proof.
  unfold tok_at, canon. destruct (Nat.lt_ge_cases j (length tys)) as [Hlt|Hge].
  - now rewrite canon_from_nth.
  - rewrite nth_overflow by (now rewrite canon_from_length).
    now rewrite nth_overflow by assumption.
Qed.

Lemma firstn_canon_types i tys : map ttype (firstn i (canon tys)) = firstn i tys.
Proof. now rewrite <- firstn_map, canon_types. Qed.

Section D.
Variable g : grammar.

Inductive der : sym -> list nat -> Prop :=
| der_T a : der (T a) [a]
| der_NT p pr u : nth_error g p = Some pr -> ders (rhs pr) u -> der (NT (lhs pr)) u
with ders : list sym -> list nat -> Prop :=
| ders_nil : ders [] []
| ders_cons X gamma u v : der X u -> ders gamma v -> ders (X :: gamma) (u ++ v).

Scheme der_min := Minimality for der Sort Prop
  with ders_min := Minimality for ders Sort Prop.
Combined Scheme der_ders_min from der_min, ders_min.

Lemma wt_der :
  (forall X t w, wt g X t w -> der X (map ttype w)) /\
  (forall gamma ts w, wts g gamma ts w -> ders gamma (map ttype w)).
Proof.
  apply wt_wts_min.
  - intros t. simpl. constructor.
  - intros p pr kids w Hp _ IH. econstructor; eauto.
  - constructor.
  - intros X ss t ts w1 w2 _ IH1 _ IH2. rewrite map_app. constructor; assumption.
Qed.

Lemma der_wt :
  (forall X u, der X u -> forall w, map ttype w = u -> exists t, wt g X t w) /\
  (forall gamma u, ders gamma u -> forall w, map ttype w = u -> exists ts, wts g gamma ts w).
Proof.
  apply der_ders_min.
  - intros a w Hw. destruct w as [|t [|t' w]]; simpl in Hw; try discriminate.
    inversion Hw; subst a. exists (Leaf t). constructor.
  - intros p pr u Hp _ IH w Hw. destruct (IH w Hw) as [ts Hts].
    exists (Node p ts). econstructor; eauto.
  - intros w Hw. destruct w; [|discriminate]. exists []. constructor.
  - intros X gamma u v _ IH1 _ IH2 w Hw.
    apply map_eq_app in Hw. destruct Hw as (w1 & w2 & -> & H1 & H2).
    destruct (IH1 _ H1) as [t Ht]. destruct (IH2 _ H2) as [ts Hts].
    exists (t :: ts). constructor; assumption.
Qed.

Lemma ders_app a b u v : ders a u -> ders b v -> ders (a ++ b) (u ++ v).
Proof.
  intros Ha Hb. induction Ha as [|X gamma u1 v1 HX Hg IH]; simpl; [exact Hb|].
  rewrite <- app_assoc. constructor; assumption.
Qed.

Lemma ders_app_inv : forall a b w, ders (a ++ b) w ->
  exists u v, w = u ++ v /\ ders a u /\ ders b v.
Proof.
  induction a as [|X a IH]; intros b w H; simpl in H.
  - exists [], w. repeat split; [constructor|assumption].
  - inversion H as [|X' g' u v HX Hg]; subst.
    destruct (IH _ _ Hg) as (u1 & v1 & -> & Ha & Hb).
    exists (u ++ u1), v1. rewrite app_assoc. repeat split; [constructor; assumption|assumption].
Qed.

Lemma ders_single X u : der X u -> ders [X] u.
Proof. intros H. rewrite <- (app_nil_r u). constructor; [assumption|constructor]. Qed.

Lemma ders_single_inv X u : ders [X] u -> der X u.
Proof.
  intros H. inversion H as [|X' g' u1 v HX Hg]; subst. inversion Hg; subst.
  now rewrite app_nil_r.
Qed.

Lemma ders_nil_inv u : ders [] u -> u = [].
Proof. intros H. now inversion H. Qed.

Lemma ders_all gamma : (forall X, In X gamma -> exists u, der X u) -> exists u, ders gamma u.
Proof.
  induction gamma as [|X gamma IH]; intros H.
  - exists []. constructor.
  - destruct (H X (or_introl eq_refl)) as [u Hu].
    destruct IH as [v Hv]; [intros Y HY; apply H; now right|].
    exists (u ++ v). constructor; assumption.
Qed.

Lemma ders_all_nil gamma : (forall X, In X gamma -> der X []) -> ders gamma [].
Proof.
  induction gamma as [|X gamma IH]; intros H; [constructor|].
  change (@nil nat) with (@nil nat ++ []). constructor; [apply H; now left|].
  apply IH. intros Y HY. apply H. now right.
Qed.

(** * Sentences and viable prefixes.  [X0]: the start symbol (callers take the one body symbol of
      production 0).  Stated with trees over canonical tokens, the shape Sound.v produces and
      Complete.v consumes; [sentence_t_der], [viable_t_der] give the tree-free reading. *)
Variable X0 : sym.

Definition sentence_t (tys : list nat) : Prop := exists t, wt g X0 t (canon tys).
Definition viable_t (u : list nat) : Prop := exists rest t, wt g X0 t (canon (u ++ rest)).

Lemma sentence_t_der tys : sentence_t tys <-> der X0 tys.
Proof.
  split.
  - intros [t Ht]. apply (proj1 wt_der) in Ht. now rewrite canon_types in Ht.
  - intros H. apply (proj1 der_wt _ _ H). apply canon_types.
Qed.

Lemma viable_t_der u : viable_t u <-> exists rest, der X0 (u ++ rest).
Proof.
  split.
  - intros (rest & t & Ht). exists rest. apply (proj1 wt_der) in Ht. now rewrite canon_types in Ht.
  - intros (rest & H). exists rest. apply (proj1 der_wt _ _ H). apply canon_types.
Qed.

(** what it means for terminal [a] (or end of input, [a = EOFT]) to be a legal continuation of [u] *)
Definition next_ok (u : list nat) (a : nat) : Prop :=
  if Nat.eqb a EOFT then sentence_t u else viable_t (u ++ [a]).

End D.
