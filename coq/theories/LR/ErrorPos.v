(** Property C06: position and contents of syntax errors; and the termination half of C02.

    - [C06_never_early]: a syntax error is never reported too early: the tokens up to and
      including the offending one are not a prefix of any sentence.  Needs only
      [valid_forward] and [no_error_shift].
    - [C06_exact]: for canonical LR(1) tables ([x_checks]) the error is reported on the first
      token that cannot continue a sentence, and the expected set is exact.
    - [C02_terminates]: with canonical tables the parser returns on every token list. *)
From Coq Require Import List Arith ZArith Lia Bool.
From Gocc Require Import LR.Parse LR.Validate LR.Trees LR.ValidateProofs LR.Complete LR.Derive LR.Steps LR.Exact LR.Viable.
Import ListNotations.

Section Early.
Variable g : grammar.
Variable tb : tables.
Variable an : annot.
Variable sem : nat -> nat -> list attr -> option attr.
Hypothesis VF : valid_forward g tb an = true.
Hypothesis NESb : no_error_shift tb = true.
Hypothesis sem_total : forall i p kids, sem i p kids <> None.
Variables (pr0 : prod) (X0 : sym).
Hypothesis Hpr0 : nth_error g 0 = Some pr0.
Hypothesis Hrhs0 : rhs pr0 = [X0].

Lemma NES : forall s s', action_at tb s (t_err tb) <> Some (Some (Shift s')).
Proof. exact (NES' g tb an VF NESb). Qed.

Lemma mk_error_inv a tok st e : mk_error tb a tok st = PErr e ->
  exists s, top st = Some s /\ e = {| e_action := a; e_tok := tok; e_expected := expected tb s; e_top := s |}.
Proof.
  unfold mk_error. destruct (top st) as [s|]; [|discriminate].
  intros H. inversion H; subst. eauto.
Qed.

(** by completeness the run from there ends in [POk] *)
Lemma sentence_action in2 t n c s :
  wt g X0 t in2 -> steps tb sem in2 n cfg0 = Some c -> top (c_st c) = Some s ->
  exists act, action_at tb s (ttype (tok_at in2 (c_i c))) = Some (Some act).
Proof.
  intros Hwt Hst Ht.
  destruct (lr_complete g tb an sem in2 VF sem_total pr0 X0 t Hpr0 Hrhs0 Hwt
              (n + S (size t))) as [v Hv]; [lia|].
  rewrite parse_crunc, (crunc_steps _ _ _ _ _ _ _ Hst) in Hv.
  exact (ok_has_action tb sem in2 NES c s _ v Ht Hv).
Qed.

Lemma error_excludes in1 in2 n c e lg t :
  steps tb sem in1 n cfg0 = Some c -> error_cfg tb in1 c e lg ->
  (forall j, j < S (c_i c) -> tok_at in1 j = tok_at in2 j) ->
  wt g X0 t in2 -> False.
Proof.
  intros Hst (s & st' & pos' & Ht & Ha & _) Hag Hwt.
  assert (Hst2 : steps tb sem in2 n cfg0 = Some c) by (apply (steps_agree_upto tb sem in1 in2 _ _ _ Hst); intros j Hj; apply Hag; lia).
  destruct (sentence_action in2 t n c s Hwt Hst2 Ht) as [act Hact].
  rewrite <- Hag in Hact by lia. congruence.
Qed.

Theorem C06_never_early_sec tys fuel e :
  r_out (parse tb sem (canon tys) fuel) = PErr e -> e_action e = None ->
  let i := tid (e_tok e) in
  e_tok e = tok_at (canon tys) i /\
  ~ sentence_t g X0 tys /\
  (i < length tys -> ~ viable_t g X0 (firstn i tys ++ [ttype (e_tok e)])).
Proof.
  intros Hr He. rewrite parse_crunc in Hr.
  destruct (run_err_inv tb sem (canon tys) NES _ _ _ Hr He) as (n & c & Hn & Hst & Hec).
  assert (Htok : e_tok e = tok_at (canon tys) (c_i c)).
  { destruct Hec as (s & st' & pos' & _ & _ & _ & Hm & _).
    apply mk_error_inv in Hm. destruct Hm as (s1 & _ & ->). reflexivity. }
  assert (Hi : tid (e_tok e) = c_i c) by (rewrite Htok, tok_at_canon; reflexivity).
  cbv zeta. rewrite Hi. split; [exact Htok|]. split.
  - intros [t Ht]. eapply error_excludes; eauto.
  - intros Hlt (rest & t & Ht). eapply error_excludes; [exact Hst|exact Hec| |exact Ht].
    intros j Hj. rewrite !tok_at_canon. f_equal.
    rewrite Htok, tok_at_canon. cbn [ttype].
    rewrite <- (firstn_S_nth _ _ EOFT Hlt).
    symmetry. apply nth_firstn_app; lia.
Qed.

End Early.

Theorem C06_never_early :
  forall g tb an sem,
    valid_forward g tb an = true -> no_error_shift tb = true ->
    (forall i p kids, sem i p kids <> None) ->
    forall pr0 X0, nth_error g 0 = Some pr0 -> rhs pr0 = [X0] ->
    forall tys fuel e,
      r_out (parse tb sem (canon tys) fuel) = PErr e -> e_action e = None ->
      let i := tid (e_tok e) in
      e_tok e = tok_at (canon tys) i /\
      ~ sentence_t g X0 tys /\
      (i < length tys -> ~ viable_t g X0 (firstn i tys ++ [ttype (e_tok e)])).
Proof. intros. eapply C06_never_early_sec; eauto. Qed.



Fixpoint increasing (l : list nat) : Prop :=
  match l with
  | [] => True
  | a :: r => (forall b, In b r -> a < b) /\ increasing r
  end.

Section Expected.
Variable tb : tables.

Lemma expected_from_spec : forall row i a,
  In a (expected_from i row) <-> exists j act, a = i + j /\ nth_error row j = Some (Some act).
Proof.
  induction row as [|x row IH]; intros i a; cbn [expected_from].
  - split; [intros []|intros ([|j] & act & _ & H); discriminate].
  - assert (Htl : In a (expected_from (S i) row) <->
                  exists j act, a = i + S j /\ nth_error (x :: row) (S j) = Some (Some act)).
    { rewrite IH. split; intros (j & act & -> & H); exists j, act; (split; [lia|exact H]). }
    destruct x as [act0|]; cbn [In]; rewrite Htl; split.
    + intros [<-|(j & act & H)]; [exists 0, act0; split; [lia|reflexivity]|exists (S j), act; exact H].
    + intros ([|j] & act & -> & H); [left; lia|right; exists j, act; auto].
    + intros (j & act & H). exists (S j), act. exact H.
    + intros ([|j] & act & -> & H); [discriminate|exists j, act; auto].
Qed.

Lemma expected_from_increasing : forall row i, increasing (expected_from i row).
Proof.
  induction row as [|x row IH]; intros i; simpl; [exact I|].
  destruct x as [act|]; [|apply IH]. simpl. split; [|apply IH].
  intros b Hb. apply expected_from_spec in Hb. destruct Hb as (j & _ & -> & _). lia.
Qed.

Lemma expected_spec s a : In a (expected tb s) <-> exists act, action_at tb s a = Some (Some act).
Proof.
  unfold expected, action_at. destruct (nth_error (t_states tb) s) as [r|].
  - rewrite expected_from_spec. split; [intros (j & act & -> & H); eauto|intros (act & H); exists a, act; auto].
  - split; [intros []|intros (act & H); discriminate].
Qed.

Lemma expected_increasing s : increasing (expected tb s).
Proof. unfold expected. destruct (nth_error (t_states tb) s); [apply expected_from_increasing|exact I]. Qed.

End Expected.

Lemma canon_from_noeof tys : Forall (fun ty => ty <> EOFT) tys ->
  forall i, Forall (fun t => ttype t <> EOFT) (canon_from i tys).
Proof. induction 1; intros i; simpl; constructor; auto. Qed.

Section ExactPos.
Variable g : grammar.
Variable tb : tables.
Variable an : annot.
Variable sem : nat -> nat -> list attr -> option attr.
Hypothesis LV : lr_valid g tb an = true.
Hypothesis XC : x_checks g tb an = true.
Hypothesis sem_total : forall i p kids, sem i p kids <> None.
Variables (pr0 : prod) (X0 : sym).
Hypothesis Hpr0 : nth_error g 0 = Some pr0.
Hypothesis Hrhs0 : rhs pr0 = [X0].
Variable tys : list nat.
Hypothesis TYS : Forall (fun ty => ty <> EOFT) tys.

Lemma LV_parts : valid_backward g tb an = true /\ valid_forward g tb an = true /\ no_error_shift tb = true.
Proof. pose proof LV as H. unfold lr_valid in H. rewrite !andb_true_iff in H. tauto. Qed.
Let VB := proj1 LV_parts.
Let VF := proj1 (proj2 LV_parts).
Let NESb := proj2 (proj2 LV_parts).

Notation input := (canon tys).

Lemma next_ok_d u a : next_ok g X0 u a <-> next_d g X0 u a.
Proof.
  unfold next_ok, next_d, viable_d. destruct (Nat.eqb a EOFT).
  - apply sentence_t_der.
  - apply viable_t_der.
Qed.

Lemma reach_inv n c : steps tb sem input n cfg0 = Some c -> Inv g tb input c.
Proof. exact (reach_Inv g tb an VF VB XC pr0 X0 Hpr0 Hrhs0 sem _ n c). Qed.

Lemma nth_tys_noeof i : i < length tys -> nth i tys EOFT <> EOFT.
Proof. intros H. rewrite Forall_forall in TYS. apply TYS. now apply nth_In. Qed.

Lemma error_step_same fuel st next pos st' pos' :
  error_step tb input fuel st next pos = NotRecovered st' pos' -> st' = st.
Proof.
  unfold error_step.
  rewrite (find_recover_none tb (NOREC g tb an VF XC NESb)).
  destruct (top st) as [s1|]; [|discriminate].
  destruct (action_at tb s1 (t_err tb)) as [[[s2|p|]|]|] eqn:E; try discriminate;
    try (intros H; inversion H; reflexivity).
  exfalso. exact (NES g tb an VF NESb _ _ E).
Qed.

Section AtError.
Variables (fuel : nat) (e : perror).
Hypothesis Hr : r_out (parse tb sem input fuel) = PErr e.
Hypothesis He : e_action e = None.

Let i := tid (e_tok e).
Let u := firstn i tys.

Lemma error_config :
  exists n c s, steps tb sem input n cfg0 = Some c /\ c_i c = i /\ n < fuel /\
    top (c_st c) = Some s /\
    action_at tb s (ttype (tok_at input i)) = Some None /\
    e = {| e_action := None; e_tok := tok_at input i; e_expected := expected tb s; e_top := s |} /\
    r_log (parse tb sem input fuel) = rev (c_log c).
Proof.
  pose proof Hr as Hr'. rewrite parse_crunc in Hr'.
  destruct (run_err_inv tb sem input (NES g tb an VF NESb) _ _ _ Hr' He)
    as (n & c & Hn & Hst & (s & st' & pos' & Ht & Ha & Hes & Hm & Hlog)).
  apply error_step_same in Hes. subst st'.
  apply mk_error_inv in Hm. destruct Hm as (s1 & Ht1 & Hee).
  rewrite Ht in Ht1. inversion Ht1; subst s1.
  assert (Hi : i = c_i c).
  { unfold i. rewrite Hee. cbn [e_tok]. now rewrite tok_at_canon. }
  exists n, c, s. rewrite Hi. repeat split; auto.
Qed.

Lemma stage1 : ~ sentence_t g X0 tys /\ (i < length tys -> ~ viable_t g X0 (u ++ [ttype (e_tok e)])).
Proof.
  exact (proj2 (C06_never_early_sec g tb an sem VF NESb sem_total pr0 X0 Hpr0 Hrhs0 tys fuel e Hr He)).
Qed.

Lemma etok : e_tok e = tok_at input i.
Proof.
  exact (proj1 (C06_never_early_sec g tb an sem VF NESb sem_total pr0 X0 Hpr0 Hrhs0 tys fuel e Hr He)).
Qed.

Lemma i_le : i <= length tys.
Proof.
  destruct error_config as (n & c & s & Hst & Hi & _).
  destruct (reach_inv _ _ Hst) as (_ & _ & _ & _ & Hle). rewrite canon_length in Hle. lia.
Qed.

Lemma offender_illegal : ~ next_ok g X0 u (ttype (e_tok e)).
Proof.
  destruct stage1 as [S1 S2]. unfold next_ok. pose proof i_le as Hle.
  rewrite etok, tok_at_canon. cbn [ttype].
  destruct (Nat.lt_ge_cases i (length tys)) as [Hlt|Hge].
  - pose proof (nth_tys_noeof _ Hlt) as Hne. apply Nat.eqb_neq in Hne. rewrite Hne.
    intros H. apply (S2 Hlt). rewrite etok, tok_at_canon. exact H.
  - rewrite nth_overflow by assumption. simpl. intros H. apply S1.
    unfold u in H. now rewrite firstn_all2 in H by assumption.
Qed.

(** no parser move (in particular no reduction, hence no action expression) is made with the offending
    token as look-ahead *)
Lemma no_move_on_offender m c :
  steps tb sem input m cfg0 = Some c -> c_i c = i -> step tb sem input c = None.
Proof.
  intros Hst Hi. destruct (step tb sem input c) as [c'|] eqn:Hs; [exfalso|reflexivity].
  pose proof (reach_inv _ _ Hst) as HI.
  destruct (step_some_action _ _ _ _ _ Hs) as (s & act & Ht & Ha & _).
  pose proof (inv_action_next g tb an VF VB XC pr0 X0 Hpr0 Hrhs0 _ _ _ _ _ HI Ht Ha) as Hn.
  rewrite firstn_canon_types, Hi in Hn. apply next_ok_d in Hn.
  apply offender_illegal. now rewrite etok.
Qed.

Lemma prefix_viable : viable_t g X0 u.
Proof.
  destruct error_config as (n & c & s & Hst & Hi & _).
  pose proof (inv_viable g tb an VF VB XC pr0 X0 Hpr0 Hrhs0 _ _ (reach_inv _ _ Hst)) as H.
  rewrite firstn_canon_types, Hi in H. apply viable_t_der. exact H.
Qed.

(** any input agreeing with the given one before index [i] and having a parse tree drives the
    parser into the same configuration, where its own [i]-th token must have an action *)
Lemma other_input_action in2 t a :
  (forall j, j < i -> tok_at input j = tok_at in2 j) -> wt g X0 t in2 -> ttype (tok_at in2 i) = a ->
  forall n c s, steps tb sem input n cfg0 = Some c -> c_i c = i -> top (c_st c) = Some s ->
  exists act, action_at tb s a = Some (Some act).
Proof.
  intros Hag Hwt Ha n c s Hst Hi Ht.
  assert (Hst2 : steps tb sem in2 n cfg0 = Some c).
  { eapply steps_agree; [exact Hag|exact Hst|].
    intros m c1 Hm H1. replace n with (m + (n - m)) in Hst by lia.
    destruct (steps_prefix _ _ _ _ _ _ _ Hst) as (c2 & H2 & H3).
    rewrite H1 in H2. inversion H2; subst c2.
    pose proof (steps_index _ _ _ _ _ _ H3) as Hle.
    destruct (Nat.eq_dec (c_i c1) i) as [Heq|Hne]; [|lia].
    exfalso. pose proof (no_move_on_offender _ _ H1 Heq) as Hno.
    destruct (n - m) as [|d] eqn:E; [lia|]. simpl in H3. rewrite Hno in H3. discriminate. }
  destruct (sentence_action g tb an sem VF NESb sem_total pr0 X0 Hpr0 Hrhs0 in2 t n c s Hwt Hst2 Ht) as [act Hact].
  exists act. now rewrite Hi, Ha in Hact.
Qed.

Lemma expected_exact a : In a (e_expected e) <-> next_ok g X0 u a.
Proof.
  destruct error_config as (n & c & s & Hst & Hi & _ & Ht & _ & Hee & _).
  rewrite Hee. cbn [e_expected]. rewrite expected_spec. split.
  - intros (act & Ha). apply next_ok_d.
    pose proof (inv_action_next g tb an VF VB XC pr0 X0 Hpr0 Hrhs0 _ _ _ _ _ (reach_inv _ _ Hst) Ht Ha) as H.
    now rewrite firstn_canon_types, Hi in H.
  - intros Hn. pose proof i_le as Hle.
    assert (Hlu : length u = i) by (unfold u; apply firstn_length_le; exact Hle).
    unfold next_ok in Hn. destruct (Nat.eqb a EOFT) eqn:E.
    + apply Nat.eqb_eq in E. subst a. destruct Hn as [t Ht2].
      eapply (other_input_action (canon u) t EOFT); eauto.
      * intros j Hj. rewrite !tok_at_canon. f_equal. unfold u.
        rewrite <- (app_nil_r (firstn i tys)). symmetry. apply nth_firstn_app; assumption.
      * rewrite tok_at_canon. cbn [ttype]. apply nth_overflow. lia.
    + destruct Hn as (rest & t & Ht2).
      eapply (other_input_action (canon ((u ++ [a]) ++ rest)) t a); eauto.
      * intros j Hj. rewrite !tok_at_canon. f_equal. unfold u. rewrite <- app_assoc.
        symmetry. apply nth_firstn_app; assumption.
      * rewrite tok_at_canon. cbn [ttype]. rewrite <- app_assoc.
        rewrite app_nth2 by lia. rewrite Hlu, Nat.sub_diag. reflexivity.
Qed.

Lemma expected_sorted : increasing (e_expected e).
Proof.
  destruct error_config as (n & c & s & _ & _ & _ & _ & _ & Hee & _).
  rewrite Hee. apply expected_increasing.
Qed.

End AtError.

End ExactPos.

Section Terminates.
Variable g : grammar.
Variable tb : tables.
Variable an : annot.
Variable sem : nat -> nat -> list attr -> option attr.
Hypothesis LV : lr_valid g tb an = true.
Hypothesis XC : x_checks g tb an = true.
Hypothesis sem_total : forall i p kids, sem i p kids <> None.
Variables (pr0 : prod) (X0 : sym).
Hypothesis Hpr0 : nth_error g 0 = Some pr0.
Hypothesis Hrhs0 : rhs pr0 = [X0].
Variable input : list token.
Hypothesis INP : Forall (fun t => ttype t <> EOFT) input.

Let VB := proj1 (LV_parts g tb an LV).
Let VF := proj1 (proj2 (LV_parts g tb an LV)).
Let NESb := proj2 (proj2 (LV_parts g tb an LV)).

Lemma reach_inv' n c : steps tb sem input n cfg0 = Some c -> Inv g tb input c.
Proof. exact (reach_Inv g tb an VF VB XC pr0 X0 Hpr0 Hrhs0 sem _ n c). Qed.

Lemma sentence_halts in2 u : der g X0 u -> map ttype in2 = u ->
  exists N cN, steps tb sem in2 N cfg0 = Some cN /\ step tb sem in2 cN = None.
Proof.
  intros Hd Hty. destruct (proj1 (der_wt g) _ _ Hd in2 Hty) as [t Hwt].
  destruct (lr_complete g tb an sem in2 VF sem_total pr0 X0 t Hpr0 Hrhs0 Hwt (size t + 1)) as [v Hv]; [lia|].
  apply (run_halts tb sem in2 (size t + 1) cfg0). rewrite <- parse_crunc, Hv. discriminate.
Qed.

(** Token [i] becomes the look-ahead only if the tokens before it are a viable prefix that it
    continues: then some sentence starts with them, and the run on that sentence, which halts,
    is in lockstep with the run on [input] until token [i] has been consumed. *)
Lemma progress i :
  exists n c, steps tb sem input n cfg0 = Some c /\ (step tb sem input c = None \/ c_i c = i).
Proof.
  induction i as [|i IH].
  - exists 0, cfg0. split; [reflexivity|now right].
  - destruct IH as (n & c & Hst & [Hs|Hi]); [exists n, c; split; [assumption|now left]|].
    destruct (step tb sem input c) as [c1|] eqn:Hs; [|exists n, c; split; [assumption|now left]].
    pose proof (reach_inv' _ _ Hst) as HI.
    destruct (step_some_action _ _ _ _ _ Hs) as (s & act & Ht & Ha & _).
    pose proof (inv_action_next g tb an VF VB XC pr0 X0 Hpr0 Hrhs0 _ _ _ _ _ HI Ht Ha) as Hn.
    rewrite Hi in Hn.
    assert (Hle : i <= length input) by (destruct HI as (_ & _ & _ & _ & Hle); lia).
    unfold next_d in Hn. destruct (Nat.lt_ge_cases i (length input)) as [Hlt|Hge].
    + assert (Hne : ttype (tok_at input i) <> EOFT) by (intros E; apply (tok_at_eof input i INP) in E; lia).
      apply Nat.eqb_neq in Hne. rewrite Hne in Hn.
      destruct Hn as (rest & Hd).
      set (in2 := firstn (S i) input ++ canon rest).
      destruct (sentence_halts in2 _ Hd) as (N & cN & HN & HsN).
      { unfold in2, tok_at. rewrite (firstn_S_nth _ _ {| ttype := EOFT; tid := i |} Hlt).
        rewrite !map_app, canon_types. reflexivity. }
      destruct (lockstep tb sem input in2 i) with (N := N) (c := cfg0) (cN := cN) as (m & c' & H1 & H2); auto.
      * intros j Hj. unfold in2, tok_at. symmetry. apply nth_firstn_app; lia.
      * simpl. lia.
      * exists m, c'. split; assumption.
    + rewrite (tok_at_overflow input i Hge) in Hn. simpl in Hn.
      destruct (sentence_halts input _ Hn) as (N & cN & HN & HsN); [now rewrite firstn_all2|].
      exists N, cN. split; [assumption|now left].
Qed.

Lemma halts : exists n c, steps tb sem input n cfg0 = Some c /\ step tb sem input c = None.
Proof.
  destruct (progress (S (length input))) as (n & c & Hst & [Hs|Hi]); [eauto|].
  exfalso. destruct (reach_inv' _ _ Hst) as (_ & _ & _ & _ & Hle). lia.
Qed.

Lemma terminates_sec : exists fuel0, forall fuel, fuel0 <= fuel -> r_out (parse tb sem input fuel) <> PFuel.
Proof.
  destruct halts as (n & c & Hst & Hs). exists (S n). intros fuel Hf.
  rewrite parse_crunc. eapply (halts_not_fuel tb sem input (NES g tb an VF NESb)); eauto.
Qed.

End Terminates.

(** C06, exact form.  [i] = index of the offending token, [u] = the tokens before it.
    - the error carries the very token number [i] of the input (or the end-of-input token);
    - [u] is a viable prefix, but [u] followed by the offending token (or, at the end of the
      input, [u] itself as a complete sentence) is not;
    - the expected list is exactly the set of legal continuations of [u], strictly increasing;
    - no parser move (a fortiori no reduction and no action expression) is made with the
      offending token as look-ahead: every configuration whose look-ahead is token [i] is stuck,
      and the reported log is the log of the configuration in which token [i] became the
      look-ahead. *)
Theorem C06_exact :
  forall g tb an sem,
    lr_valid g tb an = true -> x_checks g tb an = true ->
    (forall i p kids, sem i p kids <> None) ->
    forall pr0 X0, nth_error g 0 = Some pr0 -> rhs pr0 = [X0] ->
    forall tys, Forall (fun ty => ty <> EOFT) tys ->
    forall fuel e,
      r_out (parse tb sem (canon tys) fuel) = PErr e -> e_action e = None ->
      let i := tid (e_tok e) in
      let u := firstn i tys in
      i <= length tys /\
      e_tok e = tok_at (canon tys) i /\
      viable_t g X0 u /\
      ~ next_ok g X0 u (ttype (e_tok e)) /\
      (forall a, In a (e_expected e) <-> next_ok g X0 u a) /\
      increasing (e_expected e) /\
      (forall m c, steps tb sem (canon tys) m cfg0 = Some c -> c_i c = i ->
                   step tb sem (canon tys) c = None) /\
      (exists n c, steps tb sem (canon tys) n cfg0 = Some c /\ c_i c = i /\
                   r_log (parse tb sem (canon tys) fuel) = rev (c_log c)).
Proof.
  intros g tb an sem LV XC Hsem pr0 X0 Hp0 Hr0 tys TYS fuel e Hr He. cbv zeta.
  split; [eapply i_le; eassumption|].
  split; [eapply etok; eassumption|].
  split; [eapply prefix_viable; eassumption|].
  split; [eapply offender_illegal; eassumption|].
  split; [intros a; eapply expected_exact; eassumption|].
  split; [eapply expected_sorted; eassumption|].
  split; [intros m c; eapply no_move_on_offender; eassumption|].
  destruct (error_config g tb an sem LV XC tys fuel e Hr He) as (n & c & s & Hst & Hi & _ & _ & _ & _ & Hlog).
  exists n, c. auto.
Qed.

(** C02, termination half: with canonical LR(1) tables the parser returns on EVERY token list
    (sentence or not, whatever the token identities): there is an amount of fuel from which the
    outcome is never [PFuel]. *)
Theorem C02_terminates :
  forall g tb an sem,
    lr_valid g tb an = true -> x_checks g tb an = true ->
    (forall i p kids, sem i p kids <> None) ->
    forall pr0 X0, nth_error g 0 = Some pr0 -> rhs pr0 = [X0] ->
    forall input, Forall (fun t => ttype t <> EOFT) input ->
    exists fuel0, forall fuel, fuel0 <= fuel -> r_out (parse tb sem input fuel) <> PFuel.
Proof. intros. eapply terminates_sec; eauto. Qed.

(** Non-vacuity: S' -> S ; S -> a S | b with hand-made canonical tables passes all the checks;
    on "a b b" the error is reported on token number 2, expecting end of input only. *)
Module ErrorPosExample.
Definition ex_g : grammar :=
  [ {| lhs := 0; rhs := [NT 1] |}; {| lhs := 1; rhs := [T 2; NT 1] |}; {| lhs := 1; rhs := [T 3] |} ].
Definition ex_tb : tables := {|
  t_states := [
    {| s_actions := [None; None; Some (Shift 2); Some (Shift 3)]; s_recover := false; s_gotos := [(-1)%Z; 1%Z] |};
    {| s_actions := [None; Some Accept; None; None]; s_recover := false; s_gotos := [(-1)%Z; (-1)%Z] |};
    {| s_actions := [None; None; Some (Shift 2); Some (Shift 3)]; s_recover := false; s_gotos := [(-1)%Z; 4%Z] |};
    {| s_actions := [None; Some (Reduce 2); None; None]; s_recover := false; s_gotos := [(-1)%Z; (-1)%Z] |};
    {| s_actions := [None; Some (Reduce 1); None; None]; s_recover := false; s_gotos := [(-1)%Z; (-1)%Z] |} ];
  t_prods := [ {| p_nt := 0; p_len := 1; p_act := false |}; {| p_nt := 1; p_len := 2; p_act := true |};
               {| p_nt := 1; p_len := 1; p_act := true |} ];
  t_err := 0; t_gate := false |}.
Definition ex_an : annot := {|
  a_items := [ [(0,0,1); (1,0,1); (2,0,1)]; [(0,1,1)]; [(1,1,1); (1,0,1); (2,0,1)]; [(2,1,1)]; [(1,2,1)] ];
  a_nullable := [false; false];
  a_first := [[2; 3]; [2; 3]] |}.
Example ex_valid : lr_valid ex_g ex_tb ex_an && x_checks ex_g ex_tb ex_an = true.
Proof. vm_compute. reflexivity. Qed.
Example ex_error :
  r_out (parse ex_tb (sem_node None) (canon [2; 3; 3]) 20)
  = PErr {| e_action := None; e_tok := {| ttype := 3; tid := 2 |}; e_expected := [1]; e_top := 3 |}.
Proof. vm_compute. reflexivity. Qed.
End ErrorPosExample.

Print Assumptions C06_never_early.
Print Assumptions C06_exact.
Print Assumptions C02_terminates.
