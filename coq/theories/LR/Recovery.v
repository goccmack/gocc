(** Property C07 (error recovery), with recovery enabled.  For ANY tables passing [valid_backward]
    [parse] never panics; [error_step] (= Go's [Error()], [popNonRecoveryStates],
    [firstRecoveryState]) is characterised by the relations [skip_rel] / [recovers] / [gives_up];
    the input-skipping loop always ends.  Token conservation is in RecoveryToks.v, inertness in
    RecoveryInert.v, termination of the whole parse (canonical tables) in RecoveryTerm.v. *)
From Coq Require Import List Arith ZArith Lia Bool.
From Gocc Require Import LR.Parse LR.Validate LR.ValidateProofs LR.Steps.
Import ListNotations.

Lemma skipn_skipn_r {A} (l : list A) : forall a b, skipn a (skipn b l) = skipn (b + a) l.
Proof.
  induction l as [|x l IH]; intros a b.
  - now rewrite !skipn_nil.
  - destruct b as [|b]; [reflexivity|]. simpl. apply IH.
Qed.

Lemma top_skipn_nth (st : stack) : forall k c, nth_error st k = Some c -> top (skipn k st) = Some (fst c).
Proof.
  induction st as [|x l IH]; intros [|k] c H; try discriminate.
  - injection H as <-. now destruct x.
  - exact (IH k c H).
Qed.

(** * The recovery depth: number of cells above the topmost cell whose state can recover
      (0 if there is none: nothing is popped) *)
Section Depth.
Variable tb : tables.

Definition rec_k (st : stack) : nat :=
  match find_recover tb st 0 with Some k => k | None => 0 end.

Lemma find_recover_spec st k :
  find_recover tb st 0 = Some k <->
  (exists c, nth_error st k = Some c /\ recover_at tb (fst c) = true) /\
  (forall j c, j < k -> nth_error st j = Some c -> recover_at tb (fst c) = false).
Proof.
  revert k. induction st as [|[s a] st IH]; intros k; simpl.
  - split; [discriminate|]. intros [(c & H & _) _]. destruct k; discriminate.
  - destruct (recover_at tb s) eqn:E.
    + split.
      * intros [= <-]. split; [exists (s, a); auto|]. intros j c Hj; now apply Nat.nlt_0_r in Hj.
      * intros [_ H]. destruct k as [|k]; [reflexivity|].
        specialize (H 0 (s, a) (Nat.lt_0_succ _) eq_refl). simpl in H. congruence.
    + rewrite find_recover_shift. destruct k as [|k].
      * split; [destruct (find_recover tb st 0); discriminate|].
        intros [(c & [= <-] & H) _]. simpl in H. congruence.
      * transitivity (find_recover tb st 0 = Some k);
          [destruct (find_recover tb st 0); simpl; split; congruence|].
        rewrite IH. split; intros [H1 H2]; (split; [exact H1|]).
        -- intros [|j] c Hj; simpl; [intros [= <-]; exact E|exact (H2 j c (proj2 (Nat.succ_lt_mono _ _) Hj))].
        -- intros j c Hj. exact (H2 (S j) c (proj1 (Nat.succ_lt_mono _ _) Hj)).
Qed.

Lemma find_recover_none_spec st :
  find_recover tb st 0 = None <-> forall c, In c st -> recover_at tb (fst c) = false.
Proof.
  induction st as [|[s a] st IH]; simpl.
  - split; [intros _ c []|reflexivity].
  - destruct (recover_at tb s) eqn:E.
    + split; [discriminate|]. intros H. specialize (H (s, a) (or_introl eq_refl)). simpl in H. congruence.
    + rewrite find_recover_shift.
      transitivity (find_recover tb st 0 = None); [destruct (find_recover tb st 0); simpl; split; congruence|].
      rewrite IH. split; [intros H c [<-|Hc]; auto|intros H c Hc; apply H; now right].
Qed.

Lemma rec_k_lt st : st <> [] -> rec_k st < length st.
Proof.
  intros Hne. unfold rec_k. destruct (find_recover tb st 0) as [k|] eqn:E.
  - apply find_recover_spec in E. destruct E as [(c & Hc & _) _].
    apply nth_error_Some. congruence.
  - destruct st; [congruence|apply Nat.lt_0_succ].
Qed.

End Depth.

Section Skip.
Variable tb : tables.
Variable input : list token.

Lemma skip_input_eq fuel s next pos :
  skip_input tb input fuel s next pos =
  if has_action tb s (ttype next) then Some (true, next, pos)
  else if Nat.eqb (ttype next) EOFT then Some (false, next, pos)
  else match fuel with
       | O => None
       | S f => skip_input tb input f s (tok_at input pos) (S pos)
       end.
Proof. destruct fuel; reflexivity. Qed.

(** the relational reading of the loop, [found = true]: a token with an action was found;
    [found = false]: the end of the input came first *)
Inductive skip_rel (s : nat) : token -> nat -> bool -> token -> nat -> Prop :=
| sk_found next pos :
    has_action tb s (ttype next) = true -> skip_rel s next pos true next pos
| sk_eof next pos :
    has_action tb s (ttype next) = false -> ttype next = EOFT -> skip_rel s next pos false next pos
| sk_drop next pos b next' pos' :
    has_action tb s (ttype next) = false -> ttype next <> EOFT ->
    skip_rel s (tok_at input pos) (S pos) b next' pos' ->
    skip_rel s next pos b next' pos'.

Lemma skip_input_rel s : forall fuel next pos b next' pos',
  skip_input tb input fuel s next pos = Some (b, next', pos') -> skip_rel s next pos b next' pos'.
Proof.
  induction fuel as [|f IH]; intros next pos b next' pos'; rewrite skip_input_eq;
    destruct (has_action tb s (ttype next)) eqn:Ea; try (intros [= <- <- <-]; now constructor);
    destruct (Nat.eqb_spec (ttype next) EOFT) as [Ee|Ee]; try (intros [= <- <- <-]; now constructor).
  intros H. apply sk_drop; auto.
Qed.

Lemma skip_rel_input s next pos b next' pos' :
  skip_rel s next pos b next' pos' ->
  pos <= pos' /\ forall fuel, pos' - pos <= fuel -> skip_input tb input fuel s next pos = Some (b, next', pos').
Proof.
  induction 1 as [next pos Ha|next pos Ha He|next pos b next' pos' Ha He Hr [IH1 IH2]].
  - split; [apply le_n|]. intros fuel _. now rewrite skip_input_eq, Ha.
  - split; [apply le_n|]. intros fuel _. rewrite skip_input_eq, Ha. apply Nat.eqb_eq in He. now rewrite He.
  - split; [exact (Nat.lt_le_incl _ _ IH1)|]. intros fuel Hf. rewrite skip_input_eq, Ha. apply Nat.eqb_neq in He. rewrite He.
    destruct fuel as [|f]; [lia|]. apply IH2. lia.
Qed.

Lemma skip_rel_fun s next pos b1 n1 p1 b2 n2 p2 :
  skip_rel s next pos b1 n1 p1 -> skip_rel s next pos b2 n2 p2 -> (b1, n1, p1) = (b2, n2, p2).
Proof.
  intros H1 H2. apply skip_rel_input in H1, H2. destruct H1 as [_ H1], H2 as [_ H2].
  specialize (H1 _ (Nat.le_add_r _ (p2 - pos))). specialize (H2 _ (Nat.le_add_l _ (p1 - pos))).
  congruence.
Qed.

(** the tokens inspected by the loop: first the offending token, then the tokens scanned next *)
Definition look (next : token) (pos j : nat) : token :=
  match j with O => next | S j' => tok_at input (pos + j') end.

Lemma look_S next pos j : look next pos (S j) = look (tok_at input pos) (S pos) j.
Proof. destruct j; simpl; [now rewrite Nat.add_0_r|now rewrite Nat.add_succ_r]. Qed.

(** [skip_rel] in closed form: exactly [n = pos' - pos] tokens are dropped (none of them has an
    action in [s], none is the end of input), the [n]-th inspected token is the new look-ahead *)
Lemma skip_rel_look s next pos b next' pos' :
  skip_rel s next pos b next' pos' <->
  exists n, pos' = pos + n /\ next' = look next pos n /\
    (forall j, j < n -> has_action tb s (ttype (look next pos j)) = false /\
                        ttype (look next pos j) <> EOFT) /\
    (if b then has_action tb s (ttype next') = true
     else has_action tb s (ttype next') = false /\ ttype next' = EOFT).
Proof.
  split.
  - induction 1 as [next pos Ha|next pos Ha He|next pos b next' pos' Ha He Hr (n & -> & -> & Hd & Hb)].
    1, 2: exists 0; rewrite Nat.add_0_r; repeat split; auto; now apply Nat.nlt_0_r in H.
    exists (S n). rewrite look_S. split; [apply Nat.add_succ_comm|]. split; [reflexivity|]. split; [|exact Hb].
    intros [|j] Hj; [simpl; auto|]. rewrite look_S. exact (Hd j (proj2 (Nat.succ_lt_mono _ _) Hj)).
  - intros (n & -> & -> & Hd & Hb). revert next pos Hd Hb.
    induction n as [|n IH]; intros next pos Hd Hb.
    + rewrite Nat.add_0_r. simpl in *. destruct b; [now constructor|destruct Hb; now constructor].
    + destruct (Hd 0 (Nat.lt_0_succ _)) as [Ha He]. rewrite Nat.add_succ_r. rewrite look_S in *.
      apply sk_drop; auto. apply (IH _ (S pos)); auto.
      intros j Hj. rewrite <- (look_S next). exact (Hd _ (proj1 (Nat.succ_lt_mono _ _) Hj)).
Qed.

Lemma skip_rel_pos s next pos b next' pos' :
  skip_rel s next pos b next' pos' ->
  1 <= pos -> next = tok_at input (pos - 1) ->
  pos <= pos' /\ next' = tok_at input (pos' - 1) /\
  (pos <= S (length input) -> pos' <= S (length input)).
Proof.
  induction 1 as [next pos Ha|next pos Ha He|next pos b next' pos' Ha He Hr IH]; intros Hp Hn.
  - auto.
  - auto.
  - destruct IH as (H1 & H2 & H3); [lia|f_equal; lia|]. split; [lia|]. split; [exact H2|].
    intros Hle. apply H3.
    destruct (Nat.lt_ge_cases (pos - 1) (length input)) as [Hlt|Hge]; [lia|].
    exfalso. apply He. rewrite Hn. apply tok_at_overflow. exact Hge.
Qed.

(** [S (length input)] units of fuel are enough from any position *)
Lemma skip_input_some s : forall fuel pos,
  length input <= pos + fuel -> exists r, skip_input tb input fuel s (tok_at input pos) (S pos) = Some r.
Proof.
  induction fuel as [|f IH]; intros pos H; rewrite skip_input_eq.
  - rewrite Nat.add_0_r in H. rewrite (tok_at_overflow input pos H). simpl.
    destruct (has_action tb s EOFT); eauto.
  - destruct (has_action tb s (ttype (tok_at input pos))); [eauto|].
    destruct (Nat.eqb (ttype (tok_at input pos)) EOFT) eqn:E; [eauto|].
    apply IH. now rewrite Nat.add_succ_r in H.
Qed.

Theorem skip_input_total s next pos :
  exists b next' pos', skip_input tb input (S (length input)) s next pos = Some (b, next', pos').
Proof.
  assert (H : exists r, skip_input tb input (S (length input)) s next pos = Some r).
  { rewrite skip_input_eq.
    destruct (has_action tb s (ttype next)); [eauto|].
    destruct (Nat.eqb (ttype next) EOFT); [eauto|].
    apply skip_input_some, Nat.le_add_l. }
  destruct H as [[[b n'] p'] H]. eauto.
Qed.

Theorem skip_input_spec s next pos b next' pos' :
  skip_input tb input (S (length input)) s next pos = Some (b, next', pos') <->
  skip_rel s next pos b next' pos'.
Proof.
  split; [apply skip_input_rel|]. intros H.
  destruct (skip_input_total s next pos) as (b0 & n0 & p0 & E). rewrite E. f_equal.
  apply (skip_rel_fun s next pos); [exact (skip_input_rel _ _ _ _ _ _ _ E)|exact H].
Qed.

End Skip.

Section ErrorStep.
Variable tb : tables.
Variable input : list token.

Lemma error_step_eq fuel st next pos :
  error_step tb input fuel st next pos =
  let k := rec_k tb st in
  let st1 := skipn k st in
  match top st1 with
  | None => RecPanic 10
  | Some s1 =>
    let ea := AErr next (rev (map snd (firstn k st))) (expected tb s1) in
    match action_at tb s1 (t_err tb) with
    | None => RecPanic 11
    | Some (Some (Shift s2)) =>
      if t_gate tb && negb (recover_at tb s1) then NotRecovered st1 pos else
      match skip_input tb input fuel s2 next pos with
      | None => RecFuel
      | Some (true, next', pos') => Recovered ((s2, ea) :: st1) next' pos'
      | Some (false, _, pos') => NotRecovered ((s2, ea) :: st1) pos'
      end
    | Some _ => NotRecovered st1 pos
    end
  end.
Proof.
  unfold error_step, rec_k. destruct (find_recover tb st 0) as [k|]; reflexivity.
Qed.

(** [recovers st next pos st' next' pos']: what a successful recovery does.
    [k] cells are popped, where [k] = number of cells above the topmost cell whose state has the
    recovery flag (0 if no cell has it); the state [s1] then on top must shift the error terminal,
    to [s2]; the pushed attribute records the offending token [next], the attributes of the popped
    cells bottom-to-top, and the expected terminals of [s1]; then input is skipped ([skip_rel]),
    starting with the offending token itself. *)
Inductive recovers (st : stack) (next : token) (pos : nat) : stack -> token -> nat -> Prop :=
| recovers_intro s1 s2 next' pos' :
    top (skipn (rec_k tb st) st) = Some s1 ->
    action_at tb s1 (t_err tb) = Some (Some (Shift s2)) ->
    t_gate tb && negb (recover_at tb s1) = false ->
    skip_rel tb input s2 next pos true next' pos' ->
    recovers st next pos
      ((s2, AErr next (rev (map snd (firstn (rec_k tb st) st))) (expected tb s1))
         :: skipn (rec_k tb st) st) next' pos'.

(** [gives_up st next pos st' pos']: recovery fails, with the stack left as [st'] *)
Inductive gives_up (st : stack) (next : token) (pos : nat) : stack -> nat -> Prop :=
| gives_up_noshift s1 a :                (* the state does not shift the error terminal *)
    top (skipn (rec_k tb st) st) = Some s1 ->
    action_at tb s1 (t_err tb) = Some a -> (forall s2, a <> Some (Shift s2)) ->
    gives_up st next pos (skipn (rec_k tb st) st) pos
| gives_up_gate s1 s2 :                  (* front-end parser only: the flag is required *)
    top (skipn (rec_k tb st) st) = Some s1 ->
    action_at tb s1 (t_err tb) = Some (Some (Shift s2)) ->
    t_gate tb && negb (recover_at tb s1) = true ->
    gives_up st next pos (skipn (rec_k tb st) st) pos
| gives_up_eof s1 s2 next' pos' :        (* the input ends before an acceptable token is found *)
    top (skipn (rec_k tb st) st) = Some s1 ->
    action_at tb s1 (t_err tb) = Some (Some (Shift s2)) ->
    t_gate tb && negb (recover_at tb s1) = false ->
    skip_rel tb input s2 next pos false next' pos' ->
    gives_up st next pos
      ((s2, AErr next (rev (map snd (firstn (rec_k tb st) st))) (expected tb s1))
         :: skipn (rec_k tb st) st) pos'.

(** all outcomes at once; [RecPanic]: the stack is empty or the state has no row in the table *)
Lemma error_step_sound st next pos :
  match error_step tb input (S (length input)) st next pos with
  | Recovered st' next' pos' => recovers st next pos st' next' pos'
  | NotRecovered st' pos' => gives_up st next pos st' pos'
  | RecPanic _ => forall s1, top (skipn (rec_k tb st) st) = Some s1 -> action_at tb s1 (t_err tb) = None
  | RecFuel => False
  end.
Proof.
  rewrite error_step_eq. cbv zeta.
  destruct (top (skipn (rec_k tb st) st)) as [s1|] eqn:Et; [|discriminate].
  destruct (action_at tb s1 (t_err tb)) as [a|] eqn:Ea; [|intros ? [= <-]; exact Ea].
  destruct a as [[s2|p|]|]; try (apply (gives_up_noshift _ _ _ _ _ Et Ea); discriminate).
  destruct (t_gate tb && negb (recover_at tb s1)) eqn:Eg; [exact (gives_up_gate _ _ _ _ _ Et Ea Eg)|].
  destruct (skip_input_total tb input s2 next pos) as (b & next' & pos' & Es). rewrite Es.
  apply skip_input_rel in Es.
  destruct b; [exact (recovers_intro _ _ _ _ _ _ _ Et Ea Eg Es)|exact (gives_up_eof _ _ _ _ _ _ _ Et Ea Eg Es)].
Qed.

Theorem error_step_recovered st next pos st' next' pos' :
  error_step tb input (S (length input)) st next pos = Recovered st' next' pos' <->
  recovers st next pos st' next' pos'.
Proof.
  split.
  - intros H. pose proof (error_step_sound st next pos) as Hs. now rewrite H in Hs.
  - intros H. destruct H as [s1 s2 next' pos' Et Ea Eg Hs]. rewrite error_step_eq. cbv zeta. rewrite Et, Ea, Eg.
    apply skip_input_spec in Hs. now rewrite Hs.
Qed.

Theorem error_step_not_recovered st next pos st' pos' :
  error_step tb input (S (length input)) st next pos = NotRecovered st' pos' <->
  gives_up st next pos st' pos'.
Proof.
  split.
  - intros H. pose proof (error_step_sound st next pos) as Hs. now rewrite H in Hs.
  - rewrite error_step_eq. cbv zeta.
    intros H. destruct H as [s1 a Et Ea Hns|s1 s2 Et Ea Eg|s1 s2 next' pos' Et Ea Eg Hs]; rewrite Et, Ea.
    + destruct a as [[s2|p|]|]; try reflexivity. now destruct (Hns s2).
    + now rewrite Eg.
    + rewrite Eg. apply skip_input_spec in Hs. now rewrite Hs.
Qed.

Theorem error_step_not_fuel st next pos :
  error_step tb input (S (length input)) st next pos <> RecFuel.
Proof. intros H. pose proof (error_step_sound st next pos) as Hs. now rewrite H in Hs. Qed.

Lemma gives_up_top st next pos st' pos' : gives_up st next pos st' pos' -> exists s, top st' = Some s.
Proof. intros H. destruct H as [s1 a Et _ _|s1 s2 Et _ _|s1 s2 next' pos' _ _ _ _]; cbn [top]; eauto. Qed.

Variable sem : nat -> nat -> list attr -> option attr.

Lemma run_nil_action f st s next pos calls log :
  top st = Some s -> action_at tb s (ttype next) = Some None ->
  run tb sem input (S f) st next pos calls log =
  match error_step tb input (S (length input)) st next pos with
  | Recovered st' next' pos' => run tb sem input f st' next' pos' calls log
  | NotRecovered st' pos' =>
    {| r_out := mk_error tb None next st'; r_log := rev log; r_scans := pos' |}
  | RecPanic c => {| r_out := PPanic c; r_log := rev log; r_scans := pos |}
  | RecFuel => {| r_out := PFuel; r_log := rev log; r_scans := pos |}
  end.
Proof. intros Ht Ha. cbn [run]. rewrite Ht, Ha. reflexivity. Qed.

(** successful recovery: the parse continues with the new stack and look-ahead; no action is
    called, the log is unchanged; [pos' - pos] tokens were scanned and dropped *)
Theorem run_recovers f st s next pos calls log st' next' pos' :
  top st = Some s -> action_at tb s (ttype next) = Some None ->
  recovers st next pos st' next' pos' ->
  run tb sem input (S f) st next pos calls log = run tb sem input f st' next' pos' calls log.
Proof.
  intros Ht Ha Hr. rewrite (run_nil_action _ _ _ _ _ _ _ Ht Ha).
  apply error_step_recovered in Hr. now rewrite Hr.
Qed.

(** failed recovery: the parse ends at once with an error carrying the offending token, the
    expected terminals and number of the state left on top; no further action call *)
Theorem run_gives_up f st s next pos calls log st' pos' :
  top st = Some s -> action_at tb s (ttype next) = Some None ->
  gives_up st next pos st' pos' ->
  exists s', top st' = Some s' /\
    run tb sem input (S f) st next pos calls log =
    {| r_out := PErr {| e_action := None; e_tok := next; e_expected := expected tb s'; e_top := s' |};
       r_log := rev log; r_scans := pos' |}.
Proof.
  intros Ht Ha Hg. rewrite (run_nil_action _ _ _ _ _ _ _ Ht Ha).
  destruct (gives_up_top _ _ _ _ _ Hg) as [s' Hs]. exists s'. split; [exact Hs|].
  apply error_step_not_recovered in Hg. rewrite Hg. unfold mk_error. now rewrite Hs.
Qed.

(** [x_recover_conv]: every state that shifts the error terminal is flagged.  Together with
    [x_recover] of Exact.v (flagged only if it shifts the error terminal) the flag is EXACTLY
    "the state shifts the error terminal". *)
Definition x_recover_conv : bool :=
  forallb (fun r => implb (match nth_error (s_actions r) (t_err tb) with
                           | Some (Some (Shift _)) => true | _ => false end)
                          (s_recover r)) (t_states tb).

Definition x_recover' : bool :=     (* = Exact.x_recover, repeated to keep this file independent *)
  forallb (fun r => implb (s_recover r)
                          (match nth_error (s_actions r) (t_err tb) with
                           | Some (Some (Shift _)) => true | _ => false end)) (t_states tb).

Lemma x_recover_conv_P : x_recover_conv = true ->
  forall s s2, action_at tb s (t_err tb) = Some (Some (Shift s2)) -> recover_at tb s = true.
Proof.
  unfold x_recover_conv, action_at, recover_at. rewrite forallb_forall. intros H s s2 Ha.
  destruct (nth_error (t_states tb) s) as [r|] eqn:E; [|discriminate].
  specialize (H _ (nth_error_In _ _ E)). rewrite Ha in H. exact H.
Qed.

Lemma x_recover'_P : x_recover' = true ->
  forall s, recover_at tb s = true -> exists s2, action_at tb s (t_err tb) = Some (Some (Shift s2)).
Proof.
  unfold x_recover', action_at, recover_at. rewrite forallb_forall. intros H s Hr.
  destruct (nth_error (t_states tb) s) as [r|] eqn:E; [|discriminate].
  specialize (H _ (nth_error_In _ _ E)). rewrite Hr in H. simpl in H.
  destruct (nth_error (s_actions r) (t_err tb)) as [[[s2|p|]|]|]; try discriminate. eauto.
Qed.

End ErrorStep.

Section NoPanic.
Variable g : grammar.
Variable tb : tables.
Variable an : annot.
Variable sem : nat -> nat -> list attr -> option attr.
Variable input : list token.

Hypothesis SH : shape_P g tb an.
Hypothesis BW : backward_P g tb an.
Hypothesis INR : Forall (fun t => ttype t < nterms tb) input.   (* token types are columns of the table *)

Notation items_of := (items_of an).

Definition tops (cells : stack) : nat := match cells with [] => 0 | (s, _) :: _ => s end.

(** the structural stack invariant: the cells above the bottom cell (top first) are a path of
    transitions of the automaton from state 0; ghost: the symbols labelling the path (top first).
    Nothing is said about attributes or consumed input: it survives popping and the shift of the
    error terminal. *)
Inductive wfp : stack -> list sym -> Prop :=
| wfp_nil : wfp [] []
| wfp_cons s a cells sg X :
    wfp cells sg -> trans tb (tops cells) X = Some s -> wfp ((s, a) :: cells) (X :: sg).

Lemma wfp_length cells sg : wfp cells sg -> length sg = length cells.
Proof. induction 1; simpl; congruence. Qed.

Lemma wfp_skipn cells sg : wfp cells sg -> forall k, wfp (skipn k cells) (skipn k sg).
Proof.
  induction 1 as [|s a cells sg X Hwf IH Htr]; intros k.
  - rewrite !skipn_nil. constructor.
  - destruct k as [|k]; [simpl; econstructor; eauto|]. simpl. apply IH.
Qed.

Lemma tops_lt cells sg : wfp cells sg -> tops cells < nstates tb.
Proof.
  intros [|s a cells' sg' X _ Htr]; simpl; [exact (sh_pos _ _ _ SH)|].
  exact (proj1 (proj2 (trans_range _ _ _ SH _ _ _ Htr))).
Qed.

Lemma tops_0 cells sg : wfp cells sg -> tops cells = 0 -> cells = [].
Proof.
  intros H. destruct H as [|s a cells sg X Hwf Htr]; [reflexivity|].
  simpl. intros ->. destruct (B_kernel _ _ _ BW _ _ _ Htr) as [Hne _]. congruence.
Qed.

Lemma top_app_bottom cells : top (cells ++ [(0, ANil)]) = Some (tops cells).
Proof. destruct cells as [|[s a] cells]; reflexivity. Qed.

(** key lemma ([item_prefix] of Sound.v without yields): an item with the dot at [k] in the top
    state: at least [k] cells, labelled by the first [k] body symbols, and the state below them
    holds the dot-0 item *)
Lemma item_prefix_p : forall cells sg, wfp cells sg ->
  forall p k la pr, In (p, k, la) (items_of (tops cells)) -> nth_error g p = Some pr ->
  k <= length cells /\ rev (firstn k sg) = firstn k (rhs pr) /\
  In (p, 0, la) (items_of (tops (skipn k cells))).
Proof.
  intros cells sg Hwf. induction Hwf as [|s a cells sg X Hwf IH Htr]; intros p k la pr Hin Hp.
  - simpl in Hin. apply (B_init _ _ _ BW) in Hin as Hk. subst k. simpl. auto.
  - destruct k as [|k]; [simpl; split; [apply Nat.le_0_l|]; split; [reflexivity|exact Hin]|].
    change (tops ((s, a) :: cells)) with s in Hin.
    destruct (B_kernel _ _ _ BW _ _ _ Htr) as [_ Hk].
    destruct (Hk _ _ _ Hin) as (pr' & Hp' & Hnth & Hin').
    rewrite Hp in Hp'. inversion Hp'; subst pr'. clear Hp'.
    destruct (IH _ _ _ _ Hin' Hp) as (Hlen & Hsy & Hin0).
    split; [exact (le_n_S _ _ Hlen)|]. split; [|exact Hin0].
    cbn [firstn rev]. rewrite Hsy. symmetry. apply firstn_snoc. exact Hnth.
Qed.

Lemma rec_k_cells cells : rec_k tb (cells ++ [(0, ANil)]) <= length cells.
Proof.
  assert (H : rec_k tb (cells ++ [(0, ANil)]) < length (cells ++ [(0, ANil)])).
  { apply rec_k_lt. destruct cells; discriminate. }
  rewrite app_length, Nat.add_1_r in H. exact (proj1 (Nat.lt_succ_r _ _) H).
Qed.

Lemma recovers_wfp cells sg next pos st' next' pos' :
  wfp cells sg -> recovers tb input (cells ++ [(0, ANil)]) next pos st' next' pos' ->
  exists cells' sg', st' = cells' ++ [(0, ANil)] /\ wfp cells' sg' /\
    skip_rel tb input (tops cells') next pos true next' pos'.
Proof.
  intros Hwf Hr. destruct Hr as [s1 s2 next' pos' Et Ea _ Hs].
  pose proof (rec_k_cells cells) as Hk. set (k := rec_k tb (cells ++ [(0, ANil)])) in *.
  rewrite (skipn_app_le _ _ _ Hk) in *. rewrite top_app_bottom in Et. injection Et as <-.
  exists ((s2, AErr next (rev (map snd (firstn k (cells ++ [(0, ANil)])))) (expected tb (tops (skipn k cells))))
            :: skipn k cells), (T (t_err tb) :: skipn k sg).
  split; [reflexivity|]. split; [|exact Hs].
  constructor; [apply wfp_skipn; exact Hwf|]. cbn [trans]. now rewrite Ea.
Qed.

Lemma recovers_resumes cells sg i st' next' pos' :
  wfp cells sg -> recovers tb input (cells ++ [(0, ANil)]) (tok_at input i) (S i) st' next' pos' ->
  exists cells' sg' j act, st' = cells' ++ [(0, ANil)] /\ wfp cells' sg' /\
    pos' = S j /\ next' = tok_at input j /\ i <= j /\ (i <= length input -> j <= length input) /\
    action_at tb (tops cells') (ttype (tok_at input j)) = Some (Some act).
Proof.
  intros Hwf Hr. destruct (recovers_wfp _ _ _ _ _ _ _ Hwf Hr) as (cells' & sg' & -> & Hwf' & Hs).
  destruct (skip_rel_pos _ _ _ _ _ _ _ _ Hs) as (Hle & -> & Hbd); [lia|f_equal; lia|].
  apply skip_rel_look in Hs. destruct Hs as (_ & _ & _ & _ & Hb). unfold has_action in Hb.
  destruct (action_at tb (tops cells') _) as [[act|]|] eqn:Ea; try discriminate.
  exists cells', sg', (pos' - 1), act. repeat split; [exact Hwf'|lia|lia|lia|exact Ea].
Qed.

Lemma error_step_no_panic cells sg next pos code :
  wfp cells sg -> error_step tb input (S (length input)) (cells ++ [(0, ANil)]) next pos <> RecPanic code.
Proof.
  intros Hwf He. pose proof (error_step_sound tb input (cells ++ [(0, ANil)]) next pos) as Hs. rewrite He in Hs.
  rewrite (skipn_app_le _ _ _ (rec_k_cells cells)) in Hs. specialize (Hs _ (top_app_bottom _)).
  destruct (action_at_some g tb an SH _ (t_err tb) (tops_lt _ _ (wfp_skipn _ _ Hwf (rec_k tb (cells ++ [(0, ANil)]))))
              (sh_err _ _ _ SH)) as [x Hx].
  congruence.
Qed.

Definition no_panic (r : result) : Prop := forall c, r_out r <> PPanic c.

Theorem run_no_panic : forall fuel cells sg next pos calls log,
  wfp cells sg -> ttype next < nterms tb ->
  no_panic (run tb sem input fuel (cells ++ [(0, ANil)]) next pos calls log).
Proof.
  induction fuel as [|fuel IH]; intros cells sg next pos calls log Hwf Hn; [intros c; discriminate|].
  destruct (action_at_some g tb an SH (tops cells) (ttype next) (tops_lt _ _ Hwf) Hn) as [x Hact].
  destruct x as [[s'|p|]|].
  - cbn [run]. rewrite top_app_bottom, Hact.
    apply (IH ((s', ATok next) :: cells) (T (ttype next) :: sg)); [|apply (tok_type_lt g tb an SH input INR)].
    constructor; [exact Hwf|]. cbn [trans]. now rewrite Hact.
  - (* reduce: everything the move looks up is there (found before [run] is unfolded: every
       case split copies the goal) *)
    destruct (B_reduce _ _ _ BW _ _ _ Hact) as (Hp0 & prg & Hpg & Hin).
    destruct (proj1 (sh_prods _ _ _ SH p) (ex_intro _ prg Hpg)) as [pw Hpw].
    destruct (sh_prod _ _ _ SH p prg pw Hpg Hpw) as (Hnt & Hlen & _ & _).
    destruct (item_prefix_p _ _ Hwf _ _ _ _ Hin Hpg) as (Hk & _ & Hin0). rewrite <- Hlen in Hk, Hin0.
    destruct (B_demand _ _ _ BW _ _ _ _ Hin0 Hp0 Hpg) as [sg' Hsg].
    destruct (goto_nat_inv _ _ _ _ Hsg) as (gz & Hgz & Hgz0 & ->). rewrite <- Hnt in Hgz.
    assert (Hlt : (length (cells ++ [(0, ANil)]) <? p_len pw) = false)
      by (apply Nat.ltb_ge; rewrite app_length; exact (Nat.le_trans _ _ _ Hk (Nat.le_add_r _ _))).
    cbn [run]. rewrite top_app_bottom, Hact, Hpw, Hlt, (firstn_app_le _ _ _ Hk), (skipn_app_le _ _ _ Hk),
      top_app_bottom, Hgz, Hgz0.
    destruct (if p_act pw then _ else _) as [[[a|] calls'] log'].
    + apply (IH ((Z.to_nat gz, a) :: skipn (p_len pw) cells) (NT (lhs prg) :: skipn (p_len pw) sg)); [|exact Hn].
      constructor; [apply wfp_skipn; exact Hwf|exact Hsg].
    + intros c. cbn [r_out]. unfold mk_error. rewrite top_app_bottom. discriminate.
  - cbn [run]. rewrite top_app_bottom, Hact.
    destruct (cells ++ [(0, ANil)]) as [|[s0 a0] rest] eqn:E; [destruct cells; discriminate|].
    intros c; discriminate.
  - rewrite (run_nil_action _ _ _ _ _ _ _ _ _ _ (top_app_bottom cells) Hact).
    pose proof (error_step_sound tb input (cells ++ [(0, ANil)]) next pos) as He.
    destruct (error_step tb input (S (length input)) (cells ++ [(0, ANil)]) next pos)
      as [st' next' pos'|st' pos'|code|] eqn:Ee.
    + destruct (recovers_wfp _ _ _ _ _ _ _ Hwf He) as (cells' & sg' & -> & Hwf' & Hs). apply (IH _ _ _ _ _ _ Hwf').
      apply skip_rel_look in Hs. destruct Hs as ([|n] & _ & -> & _); [exact Hn|apply (tok_type_lt g tb an SH input INR)].
    + destruct (gives_up_top _ _ _ _ _ _ _ He) as [s Hs]. intros c. cbn [r_out]. unfold mk_error. rewrite Hs. discriminate.
    + destruct (error_step_no_panic _ _ _ _ _ Hwf Ee).
    + destruct He.
Qed.

Section Flags.
Hypothesis XR : x_recover' tb = true.
Hypothesis XRC : x_recover_conv tb = true.
Hypothesis GATE : t_gate tb = false.
Variables (cells : stack) (sg : list sym) (next : token) (pos : nat).
Hypothesis WF : wfp cells sg.
Let st := cells ++ [(0, ANil)].

(** no state on the stack (bottom cell included) can shift the error terminal: the parse
    ends; nothing is popped, nothing is scanned *)
Theorem no_recovery_state :
  find_recover tb st 0 = None ->
  (forall c s2, In c st -> action_at tb (fst c) (t_err tb) <> Some (Some (Shift s2))) /\
  gives_up tb input st next pos st pos.
Proof.
  intros Hn. assert (Hk : rec_k tb st = 0) by (unfold rec_k; now rewrite Hn).
  pose proof (proj1 (find_recover_none_spec tb st) Hn) as Hall.
  assert (Hno : forall c s2, In c st -> action_at tb (fst c) (t_err tb) <> Some (Some (Shift s2))).
  { intros c s2 Hc Ha. apply (x_recover_conv_P tb XRC) in Ha. rewrite (Hall _ Hc) in Ha. discriminate. }
  split; [exact Hno|].
  destruct (action_at_some g tb an SH (tops cells) (t_err tb) (tops_lt _ _ WF) (sh_err _ _ _ SH)) as [a Ea].
  replace st with (skipn (rec_k tb st) st) at 2 by (now rewrite Hk).
  eapply gives_up_noshift; [rewrite Hk; apply top_app_bottom|exact Ea|].
  intros s2 ->. destruct cells as [|[s0 a0] cells0]; exact (Hno _ s2 (or_introl eq_refl) Ea).
Qed.

(** otherwise: [k] = number of cells above the topmost cell whose state shifts the error
    terminal; those [k] cells are popped, the error attribute is pushed with the Shift target,
    and input is skipped: either an acceptable token is found ([recovers]) or the input ends
    ([gives_up]) *)
Theorem recovery_state k :
  find_recover tb st 0 = Some k ->
  exists c s2, nth_error st k = Some c /\
    action_at tb (fst c) (t_err tb) = Some (Some (Shift s2)) /\
    (forall j c', j < k -> nth_error st j = Some c' ->
       forall s3, action_at tb (fst c') (t_err tb) <> Some (Some (Shift s3))) /\
    let st' := (s2, AErr next (rev (map snd (firstn k st))) (expected tb (fst c))) :: skipn k st in
    exists b next' pos', skip_rel tb input s2 next pos b next' pos' /\
      if b then recovers tb input st next pos st' next' pos'
      else gives_up tb input st next pos st' pos'.
Proof.
  intros Hf. assert (Hk : rec_k tb st = k) by (unfold rec_k; now rewrite Hf).
  apply find_recover_spec in Hf. destruct Hf as [(c & Hc & Hrc) Habove].
  destruct (x_recover'_P tb XR _ Hrc) as [s2 Ha].
  exists c, s2. split; [exact Hc|]. split; [exact Ha|]. split.
  { intros j c' Hj Hn s3 Ha3. apply (x_recover_conv_P tb XRC) in Ha3.
    rewrite (Habove _ _ Hj Hn) in Ha3. discriminate. }
  cbv zeta.
  pose proof (top_skipn_nth _ _ _ Hc) as Ht. rewrite <- Hk in Ht.
  assert (Hg : t_gate tb && negb (recover_at tb (fst c)) = false) by (now rewrite GATE).
  destruct (skip_input_total tb input s2 next pos) as (b & next' & pos' & Es).
  apply skip_input_rel in Es. exists b, next', pos'. split; [exact Es|].
  rewrite <- Hk. destruct b.
  - econstructor; eauto.
  - eapply gives_up_eof; eauto.
Qed.

End Flags.
End NoPanic.

Theorem C07_no_panic :
  forall g tb an sem input fuel c,
    valid_backward g tb an = true ->
    Forall (fun t => ttype t < nterms tb) input ->
    r_out (parse tb sem input fuel) <> PPanic c.
Proof.
  intros g tb an sem input fuel c VB INR.
  pose proof (shape_ok_P _ _ _ (proj1 (valid_backward_parts _ _ _ VB))) as SH.
  exact (run_no_panic g tb an sem input SH (valid_backward_P g tb an SH VB) INR fuel [] [] _ 1 0 []
           (wfp_nil tb) (tok_type_lt g tb an SH input INR 0) c).
Qed.

Theorem C07_skip_terminates :
  forall tb input st next pos, error_step tb input (S (length input)) st next pos <> RecFuel.
Proof. intros. apply error_step_not_fuel. Qed.

(** the part of termination that holds for ARBITRARY tables: the skipping loop ends, and a
    successful recovery hands back a configuration whose look-ahead has an action in the new top
    state (so the very next move is not an error).  Whether the parse as a whole returns depends
    on the tables: see RecoveryTerm.v (canonical tables: yes) and RecoveryExamples.v (a
    non-canonical table on which it loops for ever). *)
Theorem C07_termination_partial :
  forall tb input st next pos,
    error_step tb input (S (length input)) st next pos <> RecFuel /\
    forall st' next' pos',
      error_step tb input (S (length input)) st next pos = Recovered st' next' pos' ->
      exists s2, top st' = Some s2 /\ has_action tb s2 (ttype next') = true /\ pos <= pos' /\
                 (exists n, pos' = pos + n /\ next' = look input next pos n).
Proof.
  intros tb input st next pos. split; [apply error_step_not_fuel|].
  intros st' next' pos' H. apply error_step_recovered in H.
  destruct H as [s1 s2 next' pos' Et Ea Eg Hs]. exists s2. split; [reflexivity|].
  apply skip_rel_look in Hs. destruct Hs as (n & -> & -> & _ & Hb).
  split; [exact Hb|]. split; [apply Nat.le_add_r|]. exists n. split; reflexivity.
Qed.

(** a grammar-level check that explains [x_recover_conv] for generated tables: the error terminal
    occurs in bodies only as first symbol (gocc flags a state iff it holds an item
    [A -> . error ...]; a state reached before an [error] in the middle of a body shifts the error
    terminal without being flagged) *)
Definition x_err_first (g : grammar) (terr : nat) : bool :=
  forallb (fun pr => forallb (fun X => negb (sym_eqb X (T terr))) (tl (rhs pr))) g.

Print Assumptions C07_no_panic.
Print Assumptions C07_skip_terminates.
Print Assumptions C07_termination_partial.
Print Assumptions error_step_recovered.
Print Assumptions error_step_not_recovered.
Print Assumptions skip_rel_look.
Print Assumptions run_recovers.
Print Assumptions run_gives_up.
Print Assumptions no_recovery_state.
Print Assumptions recovery_state.
