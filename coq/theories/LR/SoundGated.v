(** Soundness for tables whose recovery is gated off (gocc's own front-end parser): [t_gate tb = true] and no state has
    [s_recover].  Such tables may shift the terminal [t_err tb] -- in the front end "error" is an ordinary keyword of the
    gocc grammar -- so [no_error_shift], the hypothesis of [Sound.parse_sound], is false for them.  With recovery gated off
    [error_step] never returns [Recovered], which is all that [Sound.parse_sound_nr] needs to know about the error column. *)
From Coq Require Import List Arith ZArith Lia Bool.
From Gocc Require Import LR.Parse LR.Validate LR.Trees LR.Eval LR.ValidateProofs LR.Steps LR.Sound.
Import ListNotations.

Section G.
Variable g : grammar.
Variable tb : tables.
Variable an : annot.
Variable sem : nat -> nat -> list attr -> option attr.
Variable input : list token.

Hypothesis GATE : t_gate tb = true.
Hypothesis NOREC : forallb (fun r => negb (s_recover r)) (t_states tb) = true.

Lemma gated_never_recovers fuel st next pos st' next' pos' :
  error_step tb input fuel st next pos <> Recovered st' next' pos'.
Proof.
  intros E. pose proof (error_step_shifts tb input fuel st next pos) as H. rewrite E in H.
  destruct H as (s1 & s2 & _ & G). rewrite GATE in G.
  assert (Hr : recover_at tb s1 = false); [|now rewrite Hr in G].
  unfold recover_at. destruct (nth_error (t_states tb) s1) as [r|] eqn:Er; [|reflexivity].
  rewrite forallb_forall in NOREC. apply negb_true_iff. exact (NOREC r (nth_error_In _ _ Er)).
Qed.

Theorem parse_sound_gated fuel v :
  valid_backward g tb an = true ->
  Forall (fun t => ttype t <> EOFT) input -> Forall (fun t => ttype t < nterms tb) input ->
  r_out (parse tb sem input fuel) = POk v ->
  exists t pr0 X0 c, nth_error g 0 = Some pr0 /\ rhs pr0 = [X0] /\ wt g X0 t input /\
                     eval tb sem t 0 [] = EOk v c (r_log (parse tb sem input fuel)).
Proof.
  intros HV HI HR Hok.
  pose proof (shape_ok_P g tb an (proj1 (valid_backward_parts g tb an HV))) as SH.
  exact (good_result_ok g tb sem input _ v
           (parse_sound_nr g tb an sem input SH (valid_backward_P g tb an SH HV) HI HR gated_never_recovers fuel) Hok).
Qed.

End G.
Print Assumptions parse_sound_gated.
