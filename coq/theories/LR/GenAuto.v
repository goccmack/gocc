(** The generator of Gen.v in the mode [-a] (automatic conflict resolution): same FIRST sets, same item sets,
    same numbering; a cell of the action table is the WINNER of [Resolve.row_action] over the candidate
    actions of the state's items (ItemSet.Action), whatever the conflict set; generation is refused only when
    resolution itself is refused (an Accept competes: Go panics).  Definitions only (proofs: the last two sections of GenProofs.v).

    Go sources modelled in addition to Gen.v:
      - internal/parser/lr1/items/itemset.go   ItemSet.Action (the fold, with conflicts recorded)   -> Canonical.cell
      - internal/parser/gen/golang/actiontable.go  (cells written whether or not a conflict was recorded)
      - main.go handleConflicts ("n LR-1 conflicts": the number of states with a recorded conflict) -> [a_conflicts] *)
From Coq Require Import List ZArith Bool Arith.
From Gocc Require Import LR.Parse LR.Validate LR.Derive LR.Exact LR.Resolve LR.Canonical LR.Gen.
Import ListNotations.

Section GenAuto.
Variable g : grammar.
Variable nn : nat.
Variable ntm : nat.
Variable symbols : list sym.
Variable la_order : list nat.
Variable p_acts : list bool.
Variable terr : nat.

Section Tables.
Variable an : annot.
Variable tr : transitions.

(** [None] = resolution refused (Go panics) *)
Definition action_cell_auto (s a : nat) : option (option act) :=
  match cell g an tr s a with
  | Some (w, _) => Some w
  | None => None
  end.

Definition action_row_auto (s : nat) : option (list (option act)) :=
  all_some (map (action_cell_auto s) (seq 0 ntm)).

Definition gen_row_auto (s : nat) : option srow :=
  match action_row_auto s with
  | None => None
  | Some acts => Some {| s_actions := acts; s_recover := can_recover g terr (items_of an s); s_gotos := goto_row nn tr s |}
  end.

(** the number gocc announces: states with at least one cell whose conflict set is not empty *)
Definition a_conflicts : nat := length (filter (state_conflict g ntm an tr) (seq 0 (length (a_items an)))).
End Tables.

Inductive gen_auto_result :=
| AutoOk (tb : tables) (an : annot) (tr : transitions) (nconf : nat)
| AutoRefused (an : annot) (tr : transitions)     (* some cell: Accept competes with another action *)
| AutoIllFormed
| AutoFirstUnstable
| AutoFuel.

Definition gen_run_auto (fuel : nat) : gen_auto_result :=
  if negb (gen_wf g nn ntm symbols la_order terr) then AutoIllFormed else
  match gen_first g nn with
  | None => AutoFirstUnstable
  | Some (N, F) =>
    match gen_states_an g symbols la_order {| a_items := []; a_nullable := N; a_first := F |} fuel with
    | None => AutoFuel
    | Some (sts, trs) =>
      let an := {| a_items := sts; a_nullable := N; a_first := F |} in
      match all_some (map (gen_row_auto an trs) (seq 0 (length sts))) with
      | None => AutoRefused an trs
      | Some rows =>
        AutoOk {| t_states := rows; t_prods := gen_prods g p_acts; t_err := terr; t_gate := false |} an trs
               (a_conflicts an trs)
      end
    end
  end.

End GenAuto.

(** The exit status of gocc as far as the syntax part decides it (main.go handleConflicts + the panic in
    ResolveConflict): [None] = the model could not decide (ill-formed input, out of fuel). *)
Definition gocc_exit (g : grammar) (nn ntm : nat) (symbols : list sym) (la_order : list nat) (p_acts : list bool)
                     (terr : nat) (auto : bool) (fuel : nat) : option nat :=
  match gen_run_auto g nn ntm symbols la_order p_acts terr fuel with
  | AutoOk _ _ _ n => Some (if auto then 0 else if Nat.eqb n 0 then 0 else 1)
  | AutoRefused _ _ => Some 2
  | _ => None
  end.
