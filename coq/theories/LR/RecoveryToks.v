(** Property C07: token conservation, with recovery enabled and for ARBITRARY tables
    (no validity hypothesis at all: this is a property of the [Parse]/[Error] loop alone).

    [toks_of a] = the token leaves of an attribute, left to right; for an error attribute the
    leaves of the DISCARDED attributes (the recorded offending token is only a record: it is
    still the look-ahead and may be shifted later).

    On a canonical input (token number [i] has identity [i]) and for user actions that only
    rearrange their arguments ([sem_rearranges]: the leaves of the result are a sub-sequence of
    the leaves of the arguments), at every moment of the run the leaves of the stack, read
    bottom to top, have strictly increasing identities, all smaller than the index of the
    look-ahead: no token is held twice, none is out of order, none comes from the future.
    Hence every argument list handed to a user action has strictly increasing identities, and so
    has the final value. *)
From Coq Require Import List Arith ZArith Lia Bool Sorted.
From Gocc Require Import LR.Parse LR.Derive LR.Recovery.
Import ListNotations.

Fixpoint toks_of (a : attr) : list token :=
  match a with
  | ATok t => [t]
  | ANode _ kids => flat_map toks_of kids
  | ANil => []
  | AErr _ discarded _ => flat_map toks_of discarded
  end.

Definition toks_list (l : list attr) : list token := flat_map toks_of l.

(** the leaves held by the stack, bottom to top *)
Definition stack_toks (st : stack) : list token := toks_list (rev (map snd st)).

Lemma toks_list_app a b : toks_list (a ++ b) = toks_list a ++ toks_list b.
Proof. apply flat_map_app. Qed.

Lemma stack_toks_cons s a st : stack_toks ((s, a) :: st) = stack_toks st ++ toks_of a.
Proof. unfold stack_toks. cbn [map snd rev]. rewrite toks_list_app. simpl. now rewrite app_nil_r. Qed.

Lemma stack_toks_split st n :
  stack_toks st = stack_toks (skipn n st) ++ toks_list (rev (map snd (firstn n st))).
Proof.
  unfold stack_toks. rewrite <- toks_list_app, <- rev_app_distr, <- map_app, firstn_skipn. reflexivity.
Qed.

Inductive sublist {A} : list A -> list A -> Prop :=
| sub_nil : sublist [] []
| sub_skip x l1 l2 : sublist l1 l2 -> sublist l1 (x :: l2)
| sub_keep x l1 l2 : sublist l1 l2 -> sublist (x :: l1) (x :: l2).

Lemma sublist_refl {A} (l : list A) : sublist l l.
Proof. induction l; [constructor|apply sub_keep; auto]. Qed.

Lemma sublist_nil_l {A} (l : list A) : sublist [] l.
Proof. induction l; constructor; auto. Qed.

Lemma sublist_app_l {A} (l r : list A) : sublist l (l ++ r).
Proof. induction l; simpl; [apply sublist_nil_l|apply sub_keep; auto]. Qed.

Lemma sublist_map {A B} (f : A -> B) l1 l2 : sublist l1 l2 -> sublist (map f l1) (map f l2).
Proof. induction 1; simpl; [constructor|apply sub_skip; auto|apply sub_keep; auto]. Qed.

(** * [between lo l hi] : lo <= x1 < x2 < ... < xn < hi *)
Fixpoint between (lo : nat) (l : list nat) (hi : nat) : Prop :=
  match l with
  | [] => lo <= hi
  | x :: r => lo <= x /\ between (S x) r hi
  end.

Lemma between_le lo l hi : between lo l hi -> lo <= hi.
Proof. revert lo. induction l as [|x r IH]; intros lo; simpl; [auto|]. intros [H1 H2]. apply IH in H2. lia. Qed.

Lemma between_weaken lo lo' l hi hi' : lo' <= lo -> hi <= hi' -> between lo l hi -> between lo' l hi'.
Proof.
  revert lo lo'. induction l as [|x r IH]; intros lo lo' Hl Hh; simpl; [lia|].
  intros [H1 H2]. split; [lia|]. eapply IH; [| |exact H2]; lia.
Qed.

Lemma between_app lo l1 l2 hi :
  between lo (l1 ++ l2) hi <-> exists mid, between lo l1 mid /\ between mid l2 hi.
Proof.
  revert lo. induction l1 as [|x r IH]; intros lo; simpl.
  - split.
    + intros H. exists lo. split; [lia|exact H].
    + intros (mid & H1 & H2). eapply between_weaken; [exact H1| |exact H2]. lia.
  - rewrite IH. split.
    + intros (H1 & mid & H2 & H3). exists mid. auto.
    + intros (mid & (H1 & H2) & H3). split; [exact H1|]. exists mid. auto.
Qed.

Lemma between_sublist l1 l2 : sublist l1 l2 -> forall lo hi, between lo l2 hi -> between lo l1 hi.
Proof.
  induction 1 as [|x l1 l2 Hs IH|x l1 l2 Hs IH]; intros lo hi; simpl.
  - auto.
  - intros [H1 H2]. apply IH in H2. eapply between_weaken; [| |exact H2]; lia.
  - intros [H1 H2]. split; [exact H1|]. apply IH. exact H2.
Qed.

Lemma between_Forall lo l hi : between lo l hi -> Forall (fun x => lo <= x < hi) l.
Proof.
  revert lo. induction l as [|x r IH]; intros lo; simpl; [constructor|].
  intros [H1 H2]. pose proof (between_le _ _ _ H2) as Hle. constructor; [lia|].
  apply IH in H2. eapply Forall_impl; [|exact H2]. simpl. intros a Ha. lia.
Qed.

Lemma between_sorted lo l hi : between lo l hi -> StronglySorted lt l.
Proof.
  revert lo. induction l as [|x r IH]; intros lo; simpl; [constructor|].
  intros [H1 H2]. constructor; [eapply IH; eauto|].
  apply between_Forall in H2. eapply Forall_impl; [|exact H2]. simpl. intros a Ha. lia.
Qed.

Lemma sorted_NoDup l : StronglySorted lt l -> NoDup l.
Proof.
  induction 1 as [|x r Hs IH Hf]; constructor; [|exact IH].
  intros Hin. rewrite Forall_forall in Hf. specialize (Hf _ Hin). lia.
Qed.

Definition tids (l : list token) : list nat := map tid l.

(** an argument list (or a value) in which every token occurs at most once, in input order *)
Definition ordered_args (kids : list attr) : Prop := StronglySorted lt (tids (toks_list kids)).
Definition ordered_attr (a : attr) : Prop := StronglySorted lt (tids (toks_of a)).

(** user actions that only rearrange (keep, drop, nest) their arguments *)
Definition sem_rearranges (sem : nat -> nat -> list attr -> option attr) : Prop :=
  forall i p kids a, sem i p kids = Some a -> sublist (toks_of a) (toks_list kids).

Lemma sem_node_rearranges fail : sem_rearranges (sem_node fail).
Proof.
  intros i p kids a H. unfold sem_node in H.
  assert (Ha : a = ANode p kids).
  { destruct fail as [k|]; [destruct (Nat.eqb i k); [discriminate|]|]; now inversion H. }
  subst a. apply sublist_refl.
Qed.

Section Toks.
Variable tb : tables.
Variable sem : nat -> nat -> list attr -> option attr.
Variable input : list token.

Hypothesis CAN : forall i, tid (tok_at input i) = i.       (* canonical input *)
Hypothesis SEM : sem_rearranges sem.

Definition TInv (st : stack) (next : token) (pos : nat) : Prop :=
  1 <= pos /\ next = tok_at input (pos - 1) /\ between 0 (tids (stack_toks st)) (pos - 1).

Definition LInv (log : list (nat * list attr)) : Prop := Forall (fun e => ordered_args (snd e)) log.

Definition good_toks (r : result) : Prop :=
  Forall (fun e => ordered_args (snd e)) (r_log r) /\
  match r_out r with POk v => ordered_attr v | _ => True end.

Lemma default_sublist (kids : list attr) :
  sublist (toks_of (match kids with [] => ANil | k :: _ => k end)) (toks_list kids).
Proof. destruct kids as [|k r]; [constructor|]. unfold toks_list. simpl. apply sublist_app_l. Qed.

Lemma TInv_init : TInv [(0, ANil)] (tok_at input 0) 1.
Proof. split; [lia|]. split; [reflexivity|]. simpl. lia. Qed.

Lemma TInv_shift st next pos s' :
  TInv st next pos -> TInv ((s', ATok next) :: st) (tok_at input pos) (S pos).
Proof.
  intros (Hpos & Hnext & Hb). split; [lia|]. split; [f_equal; lia|].
  rewrite stack_toks_cons. unfold tids. rewrite map_app. apply between_app.
  exists (pos - 1). split; [exact Hb|]. cbn [toks_of map between]. rewrite Hnext, CAN. lia.
Qed.

Lemma TInv_reduce st next pos n a s' :
  TInv st next pos ->
  sublist (toks_of a) (toks_list (rev (map snd (firstn n st)))) ->
  ordered_args (rev (map snd (firstn n st))) /\ TInv ((s', a) :: skipn n st) next pos.
Proof.
  intros (Hpos & Hnext & Hb) Hsub.
  rewrite (stack_toks_split st n) in Hb. unfold tids in Hb. rewrite map_app in Hb.
  apply between_app in Hb. destruct Hb as (mid & Hb1 & Hb2).
  split; [eapply between_sorted; exact Hb2|].
  split; [exact Hpos|]. split; [exact Hnext|].
  rewrite stack_toks_cons. unfold tids. rewrite map_app. apply between_app.
  exists mid. split; [exact Hb1|]. eapply between_sublist; [|exact Hb2]. apply sublist_map. exact Hsub.
Qed.

(** recovery moves the leaves of the popped cells into the error attribute: the leaves of the
    stack are unchanged; the skipped tokens are lost, never duplicated *)
Lemma TInv_recover st next pos st' next' pos' :
  TInv st next pos -> recovers tb input st next pos st' next' pos' ->
  stack_toks st' = stack_toks st /\ TInv st' next' pos'.
Proof.
  intros (Hpos & Hnext & Hb) Hr. destruct Hr as [s1 s2 next' pos' Et Ea Eg Hs].
  assert (Heq : stack_toks ((s2, AErr next (rev (map snd (firstn (rec_k tb st) st))) (expected tb s1))
                              :: skipn (rec_k tb st) st) = stack_toks st).
  { rewrite stack_toks_cons. cbn [toks_of]. fold (toks_list (rev (map snd (firstn (rec_k tb st) st)))).
    symmetry. apply stack_toks_split. }
  split; [exact Heq|].
  destruct (skip_rel_pos _ _ _ _ _ _ _ _ Hs Hpos Hnext) as (Hle & Hn' & _).
  split; [lia|]. split; [exact Hn'|]. rewrite Heq. eapply between_weaken; [| |exact Hb]; lia.
Qed.

Lemma TInv_top s a st next pos : TInv ((s, a) :: st) next pos -> ordered_attr a.
Proof.
  intros (_ & _ & Hb). rewrite stack_toks_cons in Hb. unfold tids in Hb. rewrite map_app in Hb.
  apply between_app in Hb. destruct Hb as (mid & _ & Hb). exact (between_sorted _ _ _ Hb).
Qed.

Lemma good_stop o log pos :
  LInv log -> (forall v, o = POk v -> ordered_attr v) ->
  good_toks {| r_out := o; r_log := rev log; r_scans := pos |}.
Proof. intros HL Ho. split; [apply Forall_rev; exact HL|]. cbn [r_out]. destruct o; auto. Qed.

Lemma good_error a tok st log pos :
  LInv log -> good_toks {| r_out := mk_error tb a tok st; r_log := rev log; r_scans := pos |}.
Proof. intros HL. apply good_stop; [exact HL|]. unfold mk_error. destruct (top st); discriminate. Qed.

Theorem run_toks : forall fuel st next pos calls log,
  TInv st next pos -> LInv log -> good_toks (run tb sem input fuel st next pos calls log).
Proof.
  induction fuel as [|fuel IH]; intros st next pos calls log HT HL; [apply good_stop; [exact HL|discriminate]|].
  cbn [run]. destruct (top st) as [s|]; [|apply good_stop; [exact HL|discriminate]].
  destruct (action_at tb s (ttype next)) as [[[s'|p|]|]|]; [| | | |apply good_stop; [exact HL|discriminate]].
  - apply IH; [apply TInv_shift; exact HT|exact HL].
  - destruct (nth_error (t_prods tb) p) as [pw|]; [|apply good_stop; [exact HL|discriminate]].
    destruct (length st <? p_len pw); [apply good_stop; [exact HL|discriminate]|].
    set (n := p_len pw). set (kids := rev (map snd (firstn n st))).
    (* the arguments are in order whatever the action makes of them *)
    pose proof (proj1 (TInv_reduce st next pos n ANil 0 HT (sublist_nil_l _))) as Hkids. fold kids in Hkids.
    destruct (if p_act pw then _ else _) as [[res calls'] log'] eqn:Er.
    assert (Hr : LInv log' /\ forall a, res = Some a -> sublist (toks_of a) (toks_list kids)).
    { destruct (p_act pw); injection Er as <- <- <-; (split; [|intros a Ha]).
      - constructor; [exact Hkids|exact HL].
      - exact (SEM _ _ _ _ Ha).
      - exact HL.
      - injection Ha as <-. apply default_sublist. }
    destruct Hr as [HL' Hsub]. destruct res as [a|]; [|apply good_error; exact HL'].
    destruct (top (skipn n st)) as [s0|]; [|apply good_stop; [exact HL|discriminate]].
    destruct (goto_at tb s0 (p_nt pw)) as [gz|]; [|apply good_stop; [exact HL|discriminate]].
    destruct (gz <? 0)%Z; [apply good_stop; [exact HL'|discriminate]|].
    apply IH; [exact (proj2 (TInv_reduce st next pos n a _ HT (Hsub a eq_refl)))|exact HL'].
  - destruct st as [|[s0 a0] rest]; apply good_stop; try exact HL; [discriminate|].
    intros v [= <-]. exact (TInv_top _ _ _ _ _ HT).
  - destruct (error_step tb input (S (length input)) st next pos) as [st' next' pos'|st' pos'|code|] eqn:Ee;
      [|apply good_error; exact HL|apply good_stop; [exact HL|discriminate]..].
    apply error_step_recovered in Ee.
    apply IH; [exact (proj2 (TInv_recover _ _ _ _ _ _ HT Ee))|exact HL].
Qed.

End Toks.

(** every argument list handed to a user action, and the final value, hold each token at most
    once and in input order *)
Theorem C07_token_conservation :
  forall tb sem tys fuel,
    sem_rearranges sem ->
    let r := parse tb sem (canon tys) fuel in
    (forall p kids, In (p, kids) (r_log r) ->
       StronglySorted lt (map tid (toks_list kids)) /\ NoDup (map tid (toks_list kids))) /\
    (forall v, r_out r = POk v -> StronglySorted lt (map tid (toks_of v))).
Proof.
  intros tb sem tys fuel SEM r.
  assert (CAN : forall i, tid (tok_at (canon tys) i) = i) by (intros i; now rewrite tok_at_canon).
  assert (H : good_toks r) by exact (run_toks tb sem (canon tys) CAN SEM fuel _ _ _ 0 [] (TInv_init _) (Forall_nil _)).
  destruct H as [H1 H2]. split.
  - intros p kids Hin. rewrite Forall_forall in H1. specialize (H1 _ Hin). simpl in H1.
    split; [exact H1|apply sorted_NoDup; exact H1].
  - intros v Hv. rewrite Hv in H2. exact H2.
Qed.

Corollary C07_token_conservation_node :
  forall tb fail tys fuel p kids,
    In (p, kids) (r_log (parse tb (sem_node fail) (canon tys) fuel)) ->
    StronglySorted lt (map tid (toks_list kids)).
Proof.
  intros tb fail tys fuel p kids Hin.
  destruct (C07_token_conservation tb (sem_node fail) tys fuel (sem_node_rearranges fail)) as [H _].
  apply (H p kids Hin).
Qed.

Print Assumptions TInv_recover.
Print Assumptions run_toks.
Print Assumptions C07_token_conservation.
Print Assumptions C07_token_conservation_node.
