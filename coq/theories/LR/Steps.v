(** Small-step view of the parser model: configurations, the (partial) step function for the
    shift and reduce moves, its iteration, the link with [run] (a move costs one unit of fuel;
    what [run] returns where no move is possible), and determinism w.r.t. the tokens actually
    consulted. *)
From Coq Require Import List Arith ZArith Lia Bool.
From Gocc Require Import LR.Parse.
Import ListNotations.

Definition alog' := list (nat * list attr).

Record cfg := { c_st : stack; c_i : nat;        (* look-ahead = token number [c_i] *)
                c_calls : nat; c_log : alog' }.

Definition cfg0 : cfg := {| c_st := [(0, ANil)]; c_i := 0; c_calls := 0; c_log := [] |}.

Lemma tok_at_in input i : ttype (tok_at input i) <> EOFT -> nth_error input i = Some (tok_at input i).
Proof.
  unfold tok_at. intros H. destruct (Nat.lt_ge_cases i (length input)) as [Hlt|Hge].
  - apply nth_error_nth'. exact Hlt.
  - rewrite nth_overflow in H by exact Hge. simpl in H. congruence.
Qed.

Lemma tok_at_lt input i : ttype (tok_at input i) <> EOFT -> i < length input.
Proof. intros H. apply nth_error_Some. rewrite (tok_at_in _ _ H). discriminate. Qed.

Lemma tok_at_overflow input i : length input <= i -> ttype (tok_at input i) = EOFT.
Proof. intros H. unfold tok_at. now rewrite nth_overflow. Qed.

Lemma tok_at_eof input i :
  Forall (fun t => ttype t <> EOFT) input -> ttype (tok_at input i) = EOFT -> length input <= i.
Proof.
  unfold tok_at. intros INP H. destruct (Nat.lt_ge_cases i (length input)) as [Hlt|Hge]; [|exact Hge].
  exfalso. rewrite Forall_forall in INP. exact (INP _ (nth_In _ _ Hlt) H).
Qed.

Lemma find_recover_shift tb st : forall j, find_recover tb st (S j) = option_map S (find_recover tb st j).
Proof.
  induction st as [|[s a] st IH]; intros j; simpl; [reflexivity|].
  destruct (recover_at tb s); [reflexivity|apply IH].
Qed.

Lemma find_recover_lt tb st : forall j k, find_recover tb st j = Some k -> j <= k < j + length st.
Proof.
  induction st as [|[s a] st IH]; intros j k H; simpl in H; [discriminate|].
  destruct (recover_at tb s); [inversion H; subst; simpl; lia|].
  apply IH in H. simpl. lia.
Qed.

Section Steps.
Variable tb : tables.
Variable sem : nat -> nat -> list attr -> option attr.

Section OneInput.
Variable input : list token.

(** one shift or reduce move; [None]: accept, syntax error, failed action, or panic *)
Definition step (c : cfg) : option cfg :=
  let next := tok_at input (c_i c) in
  match top (c_st c) with
  | None => None
  | Some s =>
    match action_at tb s (ttype next) with
    | Some (Some (Shift s')) =>
      Some {| c_st := (s', ATok next) :: c_st c; c_i := S (c_i c);
              c_calls := c_calls c; c_log := c_log c |}
    | Some (Some (Reduce p)) =>
      match nth_error (t_prods tb) p with
      | None => None
      | Some pr =>
        let n := p_len pr in
        if length (c_st c) <? n then None else
        let kids := rev (map snd (firstn n (c_st c))) in
        let st' := skipn n (c_st c) in
        let '(res, calls', log') :=
          if p_act pr then (sem (c_calls c) p kids, S (c_calls c), (p, kids) :: c_log c)
          else (Some (match kids with [] => ANil | k :: _ => k end), c_calls c, c_log c) in
        match res with
        | None => None
        | Some a =>
          match top st' with
          | None => None
          | Some s0 =>
            match goto_at tb s0 (p_nt pr) with
            | None => None
            | Some gz =>
              if (gz <? 0)%Z then None
              else Some {| c_st := (Z.to_nat gz, a) :: st'; c_i := c_i c;
                           c_calls := calls'; c_log := log' |}
            end
          end
        end
      end
    | _ => None
    end
  end.

Fixpoint steps (n : nat) (c : cfg) : option cfg :=
  match n with
  | O => Some c
  | S n' => match step c with Some c' => steps n' c' | None => None end
  end.

Definition crunc (fuel : nat) (c : cfg) : result :=
  run tb sem input fuel (c_st c) (tok_at input (c_i c)) (S (c_i c)) (c_calls c) (c_log c).

Lemma parse_crunc fuel : parse tb sem input fuel = crunc fuel cfg0.
Proof. reflexivity. Qed.

(** the inversion principle of [step] *)
Inductive move (c : cfg) : cfg -> Prop :=
| move_shift s s' :
    top (c_st c) = Some s -> action_at tb s (ttype (tok_at input (c_i c))) = Some (Some (Shift s')) ->
    move c {| c_st := (s', ATok (tok_at input (c_i c))) :: c_st c; c_i := S (c_i c);
              c_calls := c_calls c; c_log := c_log c |}
| move_reduce s p pw a calls' log' s0 gz :
    top (c_st c) = Some s -> action_at tb s (ttype (tok_at input (c_i c))) = Some (Some (Reduce p)) ->
    nth_error (t_prods tb) p = Some pw -> (length (c_st c) <? p_len pw) = false ->
    (let kids := rev (map snd (firstn (p_len pw) (c_st c))) in
     if p_act pw then (sem (c_calls c) p kids, S (c_calls c), (p, kids) :: c_log c)
     else (Some (match kids with [] => ANil | k :: _ => k end), c_calls c, c_log c))
      = (Some a, calls', log') ->
    top (skipn (p_len pw) (c_st c)) = Some s0 -> goto_at tb s0 (p_nt pw) = Some gz -> (gz <? 0)%Z = false ->
    move c {| c_st := (Z.to_nat gz, a) :: skipn (p_len pw) (c_st c); c_i := c_i c;
              c_calls := calls'; c_log := log' |}.

Lemma step_move c c' : step c = Some c' -> move c c'.
Proof.
  unfold step. intros H.
  destruct (top (c_st c)) as [s|] eqn:Ht; [|discriminate].
  destruct (action_at tb s (ttype (tok_at input (c_i c)))) as [[[s'|p|]|]|] eqn:Ha; try discriminate.
  - inversion H. exact (move_shift c s s' Ht Ha).
  - destruct (nth_error (t_prods tb) p) as [pw|] eqn:Hpw; [|discriminate].
    destruct (length (c_st c) <? p_len pw) eqn:Hl; [discriminate|].
    destruct (if p_act pw then _ else _) as [[[a|] calls'] log'] eqn:Hr; [|discriminate].
    destruct (top (skipn (p_len pw) (c_st c))) as [s0|] eqn:Ht0; [|discriminate].
    destruct (goto_at tb s0 (p_nt pw)) as [gz|] eqn:Hg; [|discriminate].
    destruct (gz <? 0)%Z eqn:Hz; [discriminate|].
    inversion H. exact (move_reduce c s p pw a calls' log' s0 gz Ht Ha Hpw Hl Hr Ht0 Hg Hz).
Qed.

(** a successful move was licensed by a shift or reduce entry: the nil-action branch of [run],
    the only place where [error_step] is called, was not taken *)
Lemma step_some_action c c' : step c = Some c' ->
  exists s act, top (c_st c) = Some s /\
     action_at tb s (ttype (tok_at input (c_i c))) = Some (Some act) /\ act <> Accept.
Proof.
  intros H. destruct (step_move _ _ H) as [s s' Ht Ha|s p ? ? ? ? ? ? Ht Ha].
  - exists s, (Shift s'). repeat split; [exact Ht|exact Ha|discriminate].
  - exists s, (Reduce p). repeat split; [exact Ht|exact Ha|discriminate].
Qed.

Lemma step_index c c' : step c = Some c' -> c_i c' = c_i c \/ c_i c' = S (c_i c).
Proof. intros H. destruct (step_move _ _ H); [right|left]; reflexivity. Qed.

Lemma step_log c c' : step c = Some c' -> exists l, c_log c' = l ++ c_log c.
Proof.
  intros H. destruct (step_move _ _ H) as [|s p pw a calls' log' s0 gz _ _ _ _ Hr]; [exists []; reflexivity|].
  cbn [c_log]. destruct (p_act pw); inversion Hr; [eexists [_]|exists []]; reflexivity.
Qed.

Lemma crunc_step fuel c c' : step c = Some c' -> crunc (S fuel) c = crunc fuel c'.
Proof.
  intros H. destruct (step_move _ _ H) as [s s' Ht Ha|s p pw a calls' log' s0 gz Ht Ha Hpw Hl Hr Ht0 Hg Hz];
    unfold crunc; cbn [run c_st c_i c_calls c_log]; rewrite Ht, Ha; [reflexivity|].
  (* [run] types the triple with the log type unfolded; [rewrite] matches up to syntax only *)
  cbv zeta delta [alog'] in Hr. rewrite Hpw. cbv beta iota zeta. rewrite Hl, Hr, Ht0, Hg, Hz. reflexivity.
Qed.

Lemma crunc_steps n : forall fuel c c', steps n c = Some c' -> crunc (n + fuel) c = crunc fuel c'.
Proof.
  induction n as [|n IH]; intros fuel c c' H; simpl in H.
  - inversion H; subst. reflexivity.
  - destruct (step c) as [c1|] eqn:Hs; [|discriminate].
    simpl. rewrite (crunc_step _ _ _ Hs). apply IH. exact H.
Qed.

Lemma crunc_out_of_fuel n c c' : steps n c = Some c' -> r_out (crunc n c) = PFuel.
Proof. intros H. rewrite <- (Nat.add_0_r n), (crunc_steps n 0 c c' H). reflexivity. Qed.

Lemma accept_run c s :
  top (c_st c) = Some s -> action_at tb s (ttype (tok_at input (c_i c))) = Some (Some Accept) ->
  exists v, hd_error (map snd (c_st c)) = Some v /\
    forall fuel, crunc (S fuel) c = {| r_out := POk v; r_log := rev (c_log c); r_scans := S (c_i c) |}.
Proof.
  intros Ht Ha. unfold crunc. cbn [run]. rewrite Ht, Ha.
  destruct (c_st c) as [|[s0 a0] st]; [discriminate|]. exists a0. split; reflexivity.
Qed.

Lemma steps_add n m : forall c,
  steps (n + m) c = match steps n c with Some c1 => steps m c1 | None => None end.
Proof.
  induction n as [|n IH]; intros c; simpl; [reflexivity|].
  destruct (step c); [apply IH|reflexivity].
Qed.

Lemma steps_app n m c c1 c' : steps n c = Some c1 -> steps m c1 = Some c' -> steps (n + m) c = Some c'.
Proof. intros H1 H2. now rewrite steps_add, H1. Qed.

Lemma steps_prefix n m c c' : steps (n + m) c = Some c' -> exists c1, steps n c = Some c1 /\ steps m c1 = Some c'.
Proof. rewrite steps_add. destruct (steps n c) as [c1|]; [eauto|discriminate]. Qed.

Lemma steps_snoc n c c' c'' : steps n c = Some c' -> step c' = Some c'' -> steps (S n) c = Some c''.
Proof. intros H Hs. rewrite <- Nat.add_1_r. apply (steps_app _ _ _ _ _ H). simpl. now rewrite Hs. Qed.

Lemma steps_snoc_inv n c c'' : steps (S n) c = Some c'' -> exists c', steps n c = Some c' /\ step c' = Some c''.
Proof.
  rewrite <- Nat.add_1_r. intros H. destruct (steps_prefix _ _ _ _ H) as (c' & H1 & H2).
  exists c'. split; [exact H1|]. simpl in H2. now destruct (step c').
Qed.

Lemma steps_preserve (P : cfg -> Prop) : (forall c c', P c -> step c = Some c' -> P c') ->
  forall n c c', P c -> steps n c = Some c' -> P c'.
Proof.
  intros HP. induction n as [|n IH]; intros c c' Hc H; simpl in H.
  - inversion H; subst. exact Hc.
  - destruct (step c) as [c1|] eqn:E; [|discriminate]. exact (IH _ _ (HP _ _ Hc E) H).
Qed.

Lemma steps_index n c c' : steps n c = Some c' -> c_i c <= c_i c'.
Proof.
  apply (steps_preserve (fun c1 => c_i c <= c_i c1)); [|apply le_n].
  intros c1 c2 H E. destruct (step_index _ _ E); lia.
Qed.

Lemma error_step_shifts fuel st next pos :
  match error_step tb input fuel st next pos with
  | Recovered _ _ _ | RecFuel =>
    exists s1 s2, action_at tb s1 (t_err tb) = Some (Some (Shift s2)) /\
                  (t_gate tb && negb (recover_at tb s1)) = false
  | _ => True
  end.
Proof.
  unfold error_step.
  destruct (match find_recover tb st 0 with
            | Some k => (rev (map snd (firstn k st)), skipn k st)
            | None => ([], st) end) as [removed st1].
  destruct (top st1) as [s1|]; [|exact I].
  destruct (action_at tb s1 (t_err tb)) as [[[s2|p|]|]|] eqn:E; try exact I.
  destruct (t_gate tb && negb (recover_at tb s1)) eqn:G; [exact I|].
  destruct (skip_input tb input fuel s2 next pos) as [[[[|] next'] pos']|]; [|exact I|]; exists s1, s2; auto.
Qed.

Hypothesis NES : forall s s', action_at tb s (t_err tb) <> Some (Some (Shift s')).

Lemma error_step_nes fuel st next pos :
  match error_step tb input fuel st next pos with Recovered _ _ _ | RecFuel => False | _ => True end.
Proof.
  pose proof (error_step_shifts fuel st next pos) as H.
  destruct (error_step tb input fuel st next pos); try exact I; destruct H as (s1 & s2 & E & _); exact (NES _ _ E).
Qed.

(** the configuration in which a syntax error is raised *)
Definition error_cfg (c : cfg) (e : perror) (lg : alog') : Prop :=
  exists s st' pos',
    top (c_st c) = Some s /\
    action_at tb s (ttype (tok_at input (c_i c))) = Some None /\
    error_step tb input (S (length input)) (c_st c) (tok_at input (c_i c)) (S (c_i c)) = NotRecovered st' pos' /\
    mk_error tb None (tok_at input (c_i c)) st' = PErr e /\
    lg = rev (c_log c).

Definition stuck_result (c : cfg) (r : result) : Prop :=
  match r_out r with
  | PFuel => False
  | PErr e => e_action e = None -> error_cfg c e (r_log r)
  | _ => True
  end.

Lemma stuck_run c fuel : step c = None -> stuck_result c (crunc (S fuel) c).
Proof.
  unfold step, crunc. cbn [run]. intros Hs.
  destruct (top (c_st c)) as [s|] eqn:Ht; [|exact I].
  destruct (action_at tb s (ttype (tok_at input (c_i c)))) as [[[s'|p|]|]|] eqn:Ha; [discriminate Hs| | | |exact I].
  - destruct (nth_error (t_prods tb) p) as [pr|]; [|exact I].
    destruct (length (c_st c) <? p_len pr); [exact I|].
    destruct (if p_act pr then _ else _) as [[[a|] calls'] log'].
    + destruct (top (skipn (p_len pr) (c_st c))) as [s0|]; [|exact I].
      destruct (goto_at tb s0 (p_nt pr)) as [gz|]; [|exact I].
      destruct (gz <? 0)%Z; [exact I|discriminate Hs].
    + unfold stuck_result, mk_error. cbn [r_out].
      destruct (top (skipn (p_len pr) (c_st c))); [|exact I]. discriminate.
  - clear Hs. destruct (c_st c) as [|[s0 a0] rest]; exact I.
  - clear Hs. pose proof (error_step_nes (S (length input)) (c_st c) (tok_at input (c_i c)) (S (c_i c))) as Hn.
    destruct (error_step tb input (S (length input)) (c_st c) (tok_at input (c_i c)) (S (c_i c)))
      as [st' next' pos'|st' pos'|code|] eqn:He; [destruct Hn| |exact I|destruct Hn].
    unfold stuck_result. cbn [r_out r_log].
    destruct (mk_error tb None (tok_at input (c_i c)) st') as [v|e|code|] eqn:Hm; try exact I.
    + intros _. exists s, st', pos'. repeat split; assumption.
    + unfold mk_error in Hm. destruct (top st'); discriminate.
Qed.

Lemma run_err_inv : forall fuel c e,
  r_out (crunc fuel c) = PErr e -> e_action e = None ->
  exists n c', n < fuel /\ steps n c = Some c' /\ error_cfg c' e (r_log (crunc fuel c)).
Proof.
  induction fuel as [|fuel IH]; intros c e Hr He; [discriminate|].
  destruct (step c) as [c1|] eqn:Hs.
  - rewrite (crunc_step _ _ _ Hs) in *. destruct (IH _ _ Hr He) as (n & c' & Hn & Hst & Hec).
    exists (S n), c'. split; [lia|]. split; [simpl; now rewrite Hs|assumption].
  - exists 0, c. split; [lia|]. split; [reflexivity|].
    pose proof (stuck_run c fuel Hs) as H. unfold stuck_result in H. rewrite Hr in H. exact (H He).
Qed.

Lemma error_cfg_final c e lg fuel :
  error_cfg c e lg -> r_out (crunc (S fuel) c) = PErr e.
Proof.
  intros (s & st' & pos' & Ht & Ha & Ee & Hm & _). unfold crunc. cbn [run].
  rewrite Ht, Ha, Ee. exact Hm.
Qed.

Lemma ok_has_action c s fuel v :
  top (c_st c) = Some s -> r_out (crunc fuel c) = POk v ->
  exists act, action_at tb s (ttype (tok_at input (c_i c))) = Some (Some act).
Proof.
  intros Ht. destruct fuel as [|fuel]; [discriminate|]. unfold crunc. cbn [run]. rewrite Ht.
  destruct (action_at tb s (ttype (tok_at input (c_i c)))) as [[act|]|]; [eauto| |discriminate].
  pose proof (error_step_nes (S (length input)) (c_st c) (tok_at input (c_i c)) (S (c_i c))) as Hn.
  destruct (error_step tb input (S (length input)) (c_st c) (tok_at input (c_i c)) (S (c_i c)))
    as [st' next' pos'|st' pos'|code|]; [destruct Hn| |discriminate..].
  simpl. unfold mk_error. destruct (top st'); discriminate.
Qed.

Lemma run_halts : forall fuel c, r_out (crunc fuel c) <> PFuel ->
  exists n c', steps n c = Some c' /\ step c' = None.
Proof.
  induction fuel as [|fuel IH]; intros c H; [exfalso; apply H; reflexivity|].
  destruct (step c) as [c1|] eqn:Hs.
  - rewrite (crunc_step _ _ _ Hs) in H. destruct (IH _ H) as (n & c' & H1 & H2).
    exists (S n), c'. split; [simpl; now rewrite Hs|assumption].
  - exists 0, c. split; [reflexivity|assumption].
Qed.

Lemma stuck_not_fuel c fuel : step c = None -> r_out (crunc (S fuel) c) <> PFuel.
Proof. intros Hs Hf. pose proof (stuck_run c fuel Hs) as H. unfold stuck_result in H. now rewrite Hf in H. Qed.

Lemma halts_not_fuel n c fuel : steps n cfg0 = Some c -> step c = None -> n < fuel ->
  r_out (crunc fuel cfg0) <> PFuel.
Proof.
  intros Hst Hs Hn. replace fuel with (n + S (fuel - n - 1)) by lia.
  rewrite (crunc_steps _ _ _ _ Hst). now apply stuck_not_fuel.
Qed.

End OneInput.

Lemma step_agree in1 in2 c :
  tok_at in1 (c_i c) = tok_at in2 (c_i c) -> step in1 c = step in2 c.
Proof. intros H. unfold step. rewrite H. reflexivity. Qed.

Lemma steps_agree in1 in2 k :
  (forall j, j < k -> tok_at in1 j = tok_at in2 j) ->
  forall n c c', steps in1 n c = Some c' ->
    (forall m c1, m < n -> steps in1 m c = Some c1 -> c_i c1 < k) ->
    steps in2 n c = Some c'.
Proof.
  intros Hag. induction n as [|n IH]; intros c c' H Hlt.
  - exact H.
  - destruct (steps_snoc_inv _ _ _ _ H) as (c1 & H1 & H2).
    assert (H1' : steps in2 n c = Some c1).
    { apply IH; [exact H1|]. intros m c2 Hm. apply Hlt. lia. }
    eapply steps_snoc; [exact H1'|].
    rewrite <- (step_agree in1 in2); [exact H2|]. apply Hag. eapply Hlt; [|exact H1]. lia.
Qed.

Lemma steps_agree_upto in1 in2 n c c' :
  steps in1 n c = Some c' -> (forall j, j <= c_i c' -> tok_at in1 j = tok_at in2 j) -> steps in2 n c = Some c'.
Proof.
  intros H Hag. apply (steps_agree in1 in2 (S (c_i c'))) with (2 := H); [intros j Hj; apply Hag; lia|].
  intros m c1 Hm H1. replace n with (m + (n - m)) in H by lia.
  destruct (steps_prefix _ _ _ _ _ H) as (c2 & H2 & H3).
  rewrite H1 in H2. inversion H2; subst c2. apply steps_index in H3. lia.
Qed.

Lemma lockstep in1 in2 i :
  (forall j, j <= i -> tok_at in1 j = tok_at in2 j) ->
  forall N c cN, steps in2 N c = Some cN -> step in2 cN = None -> c_i c <= i ->
  exists m c', steps in1 m c = Some c' /\ (step in1 c' = None \/ c_i c' = S i).
Proof.
  intros Hag. induction N as [|N IH]; intros c cN H Hstuck Hi; simpl in H.
  - inversion H; subst cN. exists 0, c. split; [reflexivity|]. left.
    rewrite (step_agree in1 in2) by (apply Hag; exact Hi). exact Hstuck.
  - destruct (step in2 c) as [c1|] eqn:Hs; [|discriminate].
    assert (Hs1 : step in1 c = Some c1) by (rewrite (step_agree in1 in2) by (apply Hag; exact Hi); exact Hs).
    destruct (Nat.le_gt_cases (c_i c1) i) as [Hle|Hgt].
    + destruct (IH _ _ H Hstuck Hle) as (m & c' & H1 & H2).
      exists (S m), c'. split; [simpl; now rewrite Hs1|exact H2].
    + exists 1, c1. split; [simpl; now rewrite Hs1|]. right.
      destruct (step_index _ _ _ Hs1); lia.
Qed.

End Steps.
