(** Proofs about [Ranges.add_range] (property C18): the classes stay sorted and disjoint, their
    union is that of the added intervals, and AddRange only ever adds cut points between
    classes, so that every class lies inside or outside every interval added so far. *)
From Coq Require Import List ZArith Lia Bool.
From Gocc Require Import Base.Ranges.
Import ListNotations.
Open Scope Z_scope.

Definition inr (x : Z) (r : rng) : Prop := fst r <= x <= snd r.
Definition covered (x : Z) (l : list rng) : Prop := exists r, In r l /\ inr x r.

(** Increasing with [b_i < a_(i+1)] (adjacent classes allowed), every class non-empty,
    everything at or above [lo]. *)
Fixpoint wf_from (lo : Z) (l : list rng) : Prop :=
  match l with
  | [] => True
  | (a, b) :: rest => lo <= a /\ a <= b /\ wf_from (b + 1) rest
  end.

Lemma sorted_disjoint_from_spec lo l : sorted_disjoint_from lo l = true <-> wf_from lo l.
Proof.
  revert lo. induction l as [|[a b] rest IH]; intros lo; simpl; [tauto|].
  rewrite !andb_true_iff, IH, !Z.leb_le. tauto.
Qed.

(** The lower bound is existential because it moves: adding an interval below the first class
    lowers it ([add_range_Inv] takes the minimum of the old bound and [from]). *)
Definition Inv (l : list rng) : Prop := exists lo, wf_from lo l.

Lemma wf_from_weaken lo lo' l : lo' <= lo -> wf_from lo l -> wf_from lo' l.
Proof. destruct l as [|[a b] rest]; simpl; intros; intuition lia. Qed.

Lemma wf_from_In : forall l lo r, wf_from lo l -> In r l -> lo <= fst r <= snd r.
Proof.
  induction l as [|[a b] rest IH]; [intros lo r _ []|].
  intros lo r (H1 & H2 & H3) [<-|Hin]; simpl; [lia|].
  specialize (IH _ _ H3 Hin). lia.
Qed.

Lemma wf_from_disjoint : forall l lo, wf_from lo l ->
  forall i j ri rj, nth_error l i = Some ri -> nth_error l j = Some rj -> (i < j)%nat ->
  snd ri < fst rj.
Proof.
  induction l as [|[a b] rest IH]; intros lo Hwf i j ri rj Hi Hj Hij; [destruct i; discriminate|].
  destruct Hwf as (_ & _ & H3). destruct j as [|j]; [lia|]. destruct i as [|i]; simpl in Hi, Hj.
  - injection Hi as <-. apply nth_error_In in Hj. pose proof (wf_from_In _ _ _ H3 Hj). simpl. lia.
  - apply (IH _ H3 i j); [assumption..|lia].
Qed.

Local Ltac zb :=
  repeat match goal with
  | H : (_ <? _) = true |- _ => apply Z.ltb_lt in H
  | H : (_ <? _) = false |- _ => apply Z.ltb_ge in H
  | H : (_ =? _) = true |- _ => apply Z.eqb_eq in H
  | H : (_ =? _) = false |- _ => apply Z.eqb_neq in H
  end.

(** Case analysis along the switch of AddRange: the comparisons, outermost first. *)
Local Ltac split_ifs :=
  repeat match goal with
  | |- context [if ?c then _ else _] => let H := fresh "C" in destruct c eqn:H
  end; zb.

(** The walk continues on [from] after a class wholly below it (case 8) and on [rt + 1] otherwise; the
    bound passed down is [rt + 1] in both, which is why the tail is weakened. *)
Lemma add_range_wf : forall l lo from to,
  wf_from lo l -> lo <= from -> wf_from lo (add_range from to l).
Proof.
  induction l as [|[rf rt] rest IH]; intros lo from to Hwf Hlo; simpl.
  - split_ifs; simpl; auto.
  - destruct Hwf as (H1 & H2 & H3).
    split_ifs; simpl; repeat split;
      try (apply IH; [assumption|]); try (eapply wf_from_weaken; [|eassumption]); lia.
Qed.

Lemma mem_cons x r l : covered x (r :: l) <-> inr x r \/ covered x l.
Proof.
  unfold covered; split.
  - intros [r' [[<-|Hin] Hx]]; [left; assumption| right; exists r'; auto].
  - intros [Hx|[r' [Hin Hx]]]; [exists r; split; [left; reflexivity|assumption]|
                                exists r'; split; [right; assumption|assumption]].
Qed.

Lemma mem_nil x : ~ covered x [].
Proof. intros [r [[] _]]. Qed.

(** The two steps by which [add_range_mem] chains [iff]s between disjunctions with [apply], so that
    no setoid rewriting under [\/] is needed. *)
Lemma mem_cons_or x (A : Prop) r l Q : ((A \/ inr x r) \/ covered x l <-> Q) -> (A \/ covered x (r :: l) <-> Q).
Proof. intros <-. apply (iff_trans (or_iff_compat_l A (mem_cons x r l))). symmetry. apply or_assoc. Qed.

Lemma or_iff_tail (A B C R R' : Prop) : (R' <-> C \/ R) -> (A \/ C <-> B) -> (A \/ R' <-> B \/ R).
Proof. intros HR HA. rewrite HR, <- or_assoc, HA. reflexivity. Qed.

(** The union is exact.  In each case of the switch either side is an arithmetic condition
    or [covered x rest]; the latter is set apart and the former left to [lia]. *)
Lemma add_range_mem : forall l lo from to x,
  wf_from lo l ->
  (covered x (add_range from to l) <-> from <= x <= to \/ covered x l).
Proof.
  induction l as [|[rf rt] rest IH]; intros lo from to x Hwf; simpl;
    (destruct (to <? from) eqn:E; zb; [split; [right; assumption|intros [H|H]; [lia|exact H]]|]).
  - apply mem_cons.
  - destruct Hwf as (_ & H2 & H3).
    pose proof (IH _ from to x H3) as IHa. pose proof (IH _ (rt + 1) to x H3) as IHb.
    symmetry. apply mem_cons_or. symmetry.
    (* the cases of the switch in the order of the model: 1, 2, 5, 9 end in the untouched [rest];
       3-4, 6-7, 10-11 go on with [from := rt + 1] (IHb); 8 goes on with the same interval (IHa) *)
    split_ifs; apply (iff_trans (mem_cons _ _ _)); repeat apply mem_cons_or;
      [ apply or_iff_compat_r | apply or_iff_compat_r | apply (or_iff_tail _ _ _ _ _ IHb)
      | apply or_iff_compat_r | apply (or_iff_tail _ _ _ _ _ IHb)
      | apply (or_iff_tail _ _ _ _ _ IHa)
      | apply or_iff_compat_r | apply (or_iff_tail _ _ _ _ _ IHb) ];
      unfold inr; simpl; lia.
Qed.

(** The cut points of [l]: where a class begins, and just after where one ends. *)
Definition cuts (l : list rng) : list Z := flat_map (fun c => [fst c; snd c + 1]) l.

Lemma wf_bounds_ge : forall l lo x, wf_from lo l -> In x (cuts l) -> lo <= x.
Proof.
  induction l as [|[a b] rest IH]; intros lo x Hwf Hx; [destruct Hx|].
  destruct Hwf as (H1 & H2 & H3). destruct Hx as [<-|[<-|Hx]]; simpl; [lia..|].
  specialize (IH _ _ H3 Hx). lia.
Qed.

Lemma wf_cut : forall l lo x c, wf_from lo l -> In x (cuts l) -> In c l -> snd c < x \/ x <= fst c.
Proof.
  induction l as [|[a b] rest IH]; intros lo x c Hwf Hx Hc; [destruct Hc|].
  destruct Hwf as (H1 & H2 & H3). destruct Hc as [<-|Hc]; simpl.
  - destruct Hx as [<-|[<-|Hx]]; simpl; [lia..|]. pose proof (wf_bounds_ge _ _ _ H3 Hx). lia.
  - pose proof (wf_from_In _ _ _ H3 Hc). destruct Hx as [<-|[<-|Hx]]; simpl; [lia..|]. exact (IH _ _ _ H3 Hx Hc).
Qed.

Lemma add_range_bounds : forall l from to x, In x (cuts l) -> In x (cuts (add_range from to l)).
Proof.
  induction l as [|[rf rt] rest IH]; intros from to x; [intros []|].
  pose proof (IH from to x). pose proof (IH (rt + 1) to x).
  simpl; split_ifs; simpl; intros [Hx|[Hx|Hx]]; auto 9.
Qed.

Lemma add_range_bounds_new : forall l from to, from <= to ->
  In from (cuts (add_range from to l)) /\ In (to + 1) (cuts (add_range from to l)).
Proof.
  induction l as [|[rf rt] rest IH]; intros from to Hle; cbn [add_range];
    rewrite (proj2 (Z.ltb_ge to from) Hle).
  - split; [left|right; left]; reflexivity.
  - destruct (IH from to Hle).
    (* when [to = rt] the walk stops behind the head class, whose end is the cut *)
    assert (rt <= to -> In (to + 1) (rt + 1 :: cuts (add_range (rt + 1) to rest))).
    { intros Hrt. destruct (Z.eq_dec rt to) as [->|]; [left; reflexivity|right; apply IH; lia]. }
    split_ifs; subst; cbn [cuts flat_map app fst snd]; auto 8 using in_eq, in_cons.
Qed.

Lemma classes_from_snoc l ops op :
  classes_from l (ops ++ [op]) = add_range (fst op) (snd op) (classes_from l ops).
Proof. unfold classes_from. rewrite fold_left_app. reflexivity. Qed.

Lemma add_range_Inv a b l : Inv l -> Inv (add_range a b l).
Proof.
  intros [lo H]. exists (Z.min lo a). apply add_range_wf; [|lia].
  eapply wf_from_weaken; [|exact H]. lia.
Qed.

Theorem classes_Inv ops : Inv (classes ops).
Proof.
  unfold classes. induction ops as [|op ops IH] using rev_ind.
  - exists 0. exact I.
  - rewrite classes_from_snoc. apply add_range_Inv. exact IH.
Qed.

Theorem Inv_sorted_disjoint l : Inv l ->
  forall i j ri rj, nth_error l i = Some ri -> nth_error l j = Some rj -> (i < j)%nat ->
  snd ri < fst rj.
Proof. intros [lo H]. exact (wf_from_disjoint l lo H). Qed.

Theorem Inv_nonempty l r : Inv l -> In r l -> fst r <= snd r.
Proof. intros [lo H] Hin. apply (wf_from_In l lo r H Hin). Qed.

Theorem Inv_unique l x c1 c2 : Inv l -> In c1 l -> In c2 l -> inr x c1 -> inr x c2 -> c1 = c2.
Proof.
  intros HI H1 H2 Hx1 Hx2.
  destruct (In_nth_error _ _ H1) as [i Hi]. destruct (In_nth_error _ _ H2) as [j Hj].
  destruct (Nat.lt_trichotomy i j) as [Hlt|[->|Hlt]].
  - pose proof (Inv_sorted_disjoint l HI i j c1 c2 Hi Hj Hlt). unfold inr in *. lia.
  - congruence.
  - pose proof (Inv_sorted_disjoint l HI j i c2 c1 Hj Hi Hlt). unfold inr in *. lia.
Qed.

Theorem classes_mem ops x : covered x (classes ops) <-> exists op, In op ops /\ inr x op.
Proof.
  unfold classes. induction ops as [|op ops IH] using rev_ind.
  - split; [intros H; exfalso; eapply mem_nil; eauto|intros [op [[] _]]].
  - rewrite classes_from_snoc. destruct (classes_Inv ops) as [lo Hwf].
    rewrite (add_range_mem _ lo _ _ x Hwf). rewrite IH. split.
    + intros [Hx|[op' [Hin Hx]]]; [|exists op'; split; [apply in_or_app; auto|assumption]].
      exists op. split; [apply in_or_app; right; left; reflexivity|exact Hx].
    + intros [op' [Hin Hx]]. apply in_app_or in Hin. destruct Hin as [Hin|[<-|[]]]; [right; eauto|left; exact Hx].
Qed.

Lemma classes_bounds ops op : In op ops -> fst op <= snd op ->
  In (fst op) (cuts (classes ops)) /\ In (snd op + 1) (cuts (classes ops)).
Proof.
  unfold classes. induction ops as [|o ops IH] using rev_ind; intros Hop Hne; [destruct Hop|].
  rewrite classes_from_snoc. apply in_app_or in Hop. destruct Hop as [Hop|[<-|[]]].
  - destruct (IH Hop Hne). split; apply add_range_bounds; assumption.
  - apply add_range_bounds_new. exact Hne.
Qed.

(** both ends of [op] are cut points of the final classes, and a class has no cut point inside it *)
Theorem classes_refine ops c op : In c (classes ops) -> In op ops ->
  (forall x, inr x c -> inr x op) \/ (forall x, inr x c -> ~ inr x op).
Proof.
  intros Hc Hop. unfold inr.
  destruct (Z_lt_le_dec (snd op) (fst op)) as [He|Hne]; [right; intros; lia|].
  destruct (classes_Inv ops) as [lo Hwf]. destruct (classes_bounds ops op Hop Hne) as [Ha Hb].
  destruct (wf_cut _ _ _ c Hwf Ha Hc); [right; intros; lia|].
  destruct (wf_cut _ _ _ c Hwf Hb Hc); [left|right]; intros; lia.
Qed.

Theorem classes_cover_range ops op x : In op ops -> inr x op ->
  exists c, In c (classes ops) /\ inr x c /\ (forall y, inr y c -> inr y op).
Proof.
  intros Hop Hx.
  assert (Hm : covered x (classes ops)) by (apply classes_mem; eauto).
  destruct Hm as [c [Hc Hxc]]. exists c. split; [assumption|split; [assumption|]].
  destruct (classes_refine ops c op Hc Hop) as [H|H]; [exact H|]. exfalso. exact (H x Hxc Hx).
Qed.
